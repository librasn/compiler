(* C01 -- Warning-free compilations yield Rust bindings that type-check against rasn.
   Type checking is rustc's; no model here stands for it.  What is modelled (Model/WellFormed.v) is the fragment of
   Rust's static semantics the generator can violate by construction of names and nesting: unique item / member names,
   resolution of every mentioned type name, finite size.  The theorems say what the checker's verdict guarantees; the
   correspondence runs the checker on the real bindings next to `cargo check` against the rasn crate and compares the
   verdicts for exactly these error classes; the search for failing inputs is `cargo check` itself on generator outputs
   under every configuration. *)
From Coq Require Import NArith Arith List Bool.
Require Import RasnV.Model.Base RasnV.Model.WellFormed.
Require RasnV.Proofs.C01.
Require Import RasnV.Model.Hoist.
Import ListNotations.

Theorem C01_names_unique_partial :
  forall items others, names_unique items others = true ->
    NoDup (map i_name items ++ others) /\ forall it, In it items -> NoDup (i_members it).
Proof.
  unfold names_unique. intros items others H. apply andb_true_iff in H as [H1 H2].
  split; [now apply Proofs.C01.dup_free_NoDup|].
  intros it Hin. rewrite forallb_forall in H2. now apply Proofs.C01.dup_free_NoDup, H2.
Qed.

Theorem C01_names_resolve_partial :
  forall items universe, resolved items universe = true ->
    forall it n, In it items -> In n (i_mentions it) -> In n (map i_name items) \/ In n universe.
Proof. intros items universe. apply Proofs.C01.resolved_iff. Qed.

(* an ordering in which every by-value containment goes strictly backwards exists only if no item contains itself,
   through any number of other items: every struct and enum has finite size *)
Theorem C01_finite_size_partial :
  forall order items, finite_by order items = true -> (forall it, In it items -> In (i_name it) order) ->
    forall a, ~ Proofs.C01.contains items a a.
Proof.
  intros order items H Hall a Hc.
  destruct (Proofs.C01.finite_by_sound order items H Hall a a Hc) as (ia & ib & Ha & Hb & Hlt).
  rewrite Ha in Hb. injection Hb as ->. exact (Nat.lt_irrefl _ Hlt).
Qed.

(* the generator's side of name resolution, for types written in place to any depth (SEQUENCE / SET / CHOICE / ENUMERATED
   inside one another): every name a generated item mentions is the name of an item emitted with it, or a prelude type, or
   a referenced assignment -- the member is written with exactly the name its in-place type is emitted under.  (The tie of
   this emission model to the code is C02's correspondence, which follows the same inner names through the real bindings.) *)
Theorem C01_in_place_types_resolve_partial :
  forall t name, resolved (emit name t) (externals t) = true.
Proof. intros t name. apply Proofs.C01.resolved_iff, Proofs.C01.emit_closed. Qed.

(* non-vacuity: Node { next: Option<Box<Node>> } is fine, Bad { inner: Bad } is not *)
Example C01_example :
  finite_by [[78]%N] [mkitem [78]%N [[110]%N] [[78]%N] []] = true /\
  finite_by [[66]%N] [mkitem [66]%N [[105]%N] [[66]%N] [[66]%N]] = false.
Proof. vm_compute. split; reflexivity. Qed.
