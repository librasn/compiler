(* C11 -- The result is a deterministic function of the set of definitions.
   Model: Model/Driver.v.  The theorems cover the order in which definitions arrive (the part that holds for every
   input at once); that linker and generator are functions of their arguments -- no hashed iteration, no process-wide
   mutable state, no dependence on thread or history -- is decided by the search (repetition, concurrency, preceding
   compilations). *)
From Coq Require Import NArith List Bool Permutation.
Require Import RasnV.Model.Base RasnV.Model.Driver.
Require RasnV.Proofs.Driver.
Import ListNotations.

(* with distinct bare names, blocks and warnings depend only on the SET of definitions, for any behaviour of linker and
   generator and any number of sources, modules and assignments *)
Theorem C11_function_of_the_set :
  forall outcome s s', Permutation (flatten s) (flatten s') -> NoDup (map d_name (flatten s)) ->
    blocks outcome s = blocks outcome s' /\ warning_subjects outcome s = warning_subjects outcome s'.
Proof.
  intros outcome s s' Hp Hnd. unfold blocks, warning_subjects, tld_map.
  now rewrite (Proofs.Driver.from_list_perm d_name _ _ Hp Hnd).
Qed.

(* each of the three re-orderings of an input is such a permutation *)
Theorem C11_sources_permuted : forall s s', Permutation s s' -> Permutation (flatten s) (flatten s').
Proof. intros s s' H. now apply Proofs.Driver.concat_perm, Proofs.Driver.concat_perm. Qed.

Theorem C11_modules_permuted :
  forall s s', Forall2 (@Permutation (list def)) s s' -> Permutation (flatten s) (flatten s').
Proof. intros s s' H. now apply Proofs.Driver.concat_perm, Proofs.Driver.concat_perm_inner. Qed.

Theorem C11_assignments_permuted :
  forall s s', Forall2 (Forall2 (@Permutation def)) s s' -> Permutation (flatten s) (flatten s').
Proof. intros s s' H. now apply Proofs.Driver.concat_perm_inner, Proofs.Driver.concat_forall2. Qed.

(* the map itself: insertion order is irrelevant when keys are distinct *)
Theorem C11_map_canonical :
  forall (l l' : list def), Permutation l l' -> NoDup (map d_name l) -> from_list d_name l = from_list d_name l'.
Proof. exact (@Proofs.Driver.from_list_perm def d_name). Qed.

(* with equal bare names in two modules the order decides which one survives (known finding C10-duplicate-bare-names) *)
Theorem C11_duplicate_names_refuted :
  let a := mkdef [77; 49]%N [65]%N 1 in let b := mkdef [77; 50]%N [65]%N 2 in
  blocks (fun _ => Present) [[[a]; [b]]] <> blocks (fun _ => Present) [[[b]; [a]]].
Proof. vm_compute. discriminate. Qed.
