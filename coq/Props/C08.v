(* C08 -- Compilation and error rendering are total: no panic, abort or hang.
   What is proved: the two hand-written pieces of index arithmetic that the property names --
   the nestable-comment scanner and the error excerpt -- never leave the input, for every input.
   Everything else (nom, the linker's recursion, the generators) is decided by the worker-process
   search; stack depth and time are runtime facts the model cannot exhibit. *)
From Coq Require Import NArith Arith List Bool.
Require Import RasnV.Model.Base RasnV.Model.InputPos RasnV.Model.Scan RasnV.Model.Excerpt.
Require RasnV.Proofs.C13 RasnV.Proofs.C08.
Import ListNotations.

(* take_until_unbalanced: whatever the input, the tags and the fuel, no slice is out of range *)
Theorem C08_block_scanner_total :
  forall fuel s o1 o2 c1 c2 index counter, tub fuel s o1 o2 c1 c2 index counter <> Panic.
Proof. exact Proofs.C13.tub_no_panic. Qed.

(* until_next_unindented: both slices are in range and on character boundaries, for any byte string,
   any (even absurd) at_least_until and fallback length *)
Theorem C08_excerpt_in_range :
  forall input at_least_until fallback_len, snd (until_next_unindented input at_least_until fallback_len) = true.
Proof. exact Proofs.C08.until_next_unindented_ok. Qed.

(* contextualize: for every report the position bookkeeping can produce, the slices it makes are legal *)
Theorem C08_contextualize_in_range :
  forall src ops i,
    run (init src) ops = Some i -> is_boundary src (ctx_offset i) = true ->
    contextualize_slices src (report_of i) = true.
Proof. intros src ops i H. apply Proofs.C08.inv_contextualize, (Proofs.C17.inv_reachable src ops), H. Qed.

(* non-vacuity: an error right before a three-byte character, excerpt longer than the fallback *)
Example C08_example :
  until_next_unindented [65;32;226;130;172;32;66]%N 3 4 = (5, true)
  /\ tub 20 [47;42;32;226;130;172]%N 47 42 42 47 2 0 = Fail.
Proof. vm_compute. split; reflexivity. Qed.
