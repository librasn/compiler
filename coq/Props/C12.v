(* C12 -- Modules compile independently of their neighbours; IMPORTS become use lines.
   Model: Model/Driver.v (data flow) and Model/Imports.v (the use line of one IMPORTS clause, over the name conversions
   of Model/Names.v).  That linking a definition reads only the modules it imports from, and that tagging /
   extensibility defaults do not leak between modules, are properties of linker and generator internals and are
   decided by the search (every module compiled with its imports only versus together with the others). *)
From Coq Require Import NArith List Bool.
Require Import RasnV.Model.Base RasnV.Model.Names RasnV.Model.Driver RasnV.Model.Imports.
Require RasnV.Proofs.Driver.
Import ListNotations.

(* which definitions of a module reach the generator, and in which order, does not depend on the other modules
   compiled with it *)
Theorem C12_module_definitions_independent :
  forall s s' M, NoDup (map d_name (flatten s)) -> NoDup (map d_name (flatten s')) ->
    (forall d, d_mod d = M -> (In d (flatten s) <-> In d (flatten s'))) ->
    filter (fun p => str_eqb (d_mod (snd p)) M) (tld_map s) = filter (fun p => str_eqb (d_mod (snd p)) M) (tld_map s').
Proof.
  intros s s' M Hnd Hnd' Hsame.
  apply (Proofs.Driver.from_list_filter_ext d_name (fun d => str_eqb (d_mod d) M)); trivial.
  intros d Hd. apply Hsame, str_eqb_eq, Hd.
Qed.

(* an IMPORTS clause of type and value references only becomes a use line of exactly these symbols, each under the
   name its definition gets (title case for types, constant case for values), in order *)
Theorem C12_use_line_exact :
  forall symbols,
    forallb (fun u => negb (has_braces u) && negb (class_like u)) symbols = true ->
    forallb (fun u => match u with c :: _ => is_lower c || is_upper c | [] => false end) symbols = true ->
    use_of_clause symbols =
    Items (map (fun u => match u with c :: _ => if is_lower c then const_case u else title u | [] => u end) symbols).
Proof.
  intros symbols H1 H2. unfold use_of_clause.
  destruct (existsb _ symbols) eqn:He.
  { (* a symbol that asks for the wildcard contradicts the first hypothesis *)
    apply existsb_exists in He as [u [Hu He]]. apply (proj1 (forallb_forall _ _) H1) in Hu.
    destruct (has_braces u), (class_like u); discriminate. }
  f_equal. clear H1 He.
  induction symbols as [|u r IH]; [reflexivity|]. cbn [forallb] in H2. apply andb_true_iff in H2 as [Hu Hr].
  cbn [plain_items map]. rewrite (IH Hr). destruct u as [|c u']; [discriminate|].
  destruct (is_lower c); [reflexivity|]. cbn [orb] in Hu. now rewrite Hu.
Qed.

(* a clause naming an information object class or a parameterized reference becomes a wildcard import
   (known finding C12-wildcard-on-class-import: more than the imported symbols) *)
Theorem C12_use_line_wildcard :
  forall symbols, existsb (fun u => has_braces u || class_like u) symbols = true -> use_of_clause symbols = Wildcard.
Proof. intros symbols H. unfold use_of_clause. now rewrite H. Qed.
