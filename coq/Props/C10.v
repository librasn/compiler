(* C10 -- No definition is lost silently; warnings are local; Err carries nothing.
   Model: Model/Driver.v.  What linker and generator make of one definition is abstracted to its outcome
   ([outcome : def -> status], any function); the theorems are about the driver's own data flow: the map keyed by bare
   name, the grouping by module, the emission, the warning list.  That the real pipeline follows the model, and that the
   bindings of an unrelated definition stay byte-identical when another one is replaced by an unsupported one, are
   decided by the correspondence and the search.  "A failed compilation returns no bindings" holds by the type of
   compile_to_string (Result<CompileResult, CompilerError>) and is observed on every malformed input. *)
From Coq Require Import NArith List Bool.
Require Import RasnV.Model.Base RasnV.Model.Driver.
Require RasnV.Proofs.Driver.
Import ListNotations.

(* for any number of sources, modules and assignments with distinct bare names and ANY behaviour of linker and
   generator: every assignment is represented in its module's block, or is the subject of a warning, or is of a kind
   that produces no output *)
Theorem C10_accounted :
  forall outcome s d, NoDup (map d_name (flatten s)) -> In d (flatten s) ->
    Proofs.Driver.represented outcome s d \/ In (d_name d) (warning_subjects outcome s) \/ outcome d = NoOutput.
Proof.
  intros outcome s d Hnd Hin.
  destruct (has_bindings (outcome d)) eqn:Hb; [left; now apply Proofs.Driver.represented_iff|].
  destruct (has_warning (outcome d)) eqn:Hw; [right; left; now apply Proofs.Driver.warned_if|].
  (* the one status with neither bindings nor a warning *)
  right; right. destruct (outcome d); try discriminate; reflexivity.
Qed.

(* and nothing is represented that is not an assignment of the input with bindings *)
Theorem C10_nothing_invented :
  forall outcome s m n, (exists names, In (m, names) (blocks outcome s) /\ In n names) ->
    exists d, In d (flatten s) /\ d_mod d = m /\ d_name d = n /\ has_bindings (outcome d) = true.
Proof.
  intros outcome s m n H. apply Proofs.Driver.blocks_spec in H as [d [Hd H]]. exists d.
  split; [exact (Proofs.Driver.tld_map_sound s d Hd) | exact H].
Qed.

(* a change of what happens to one assignment (it becomes unsupported, say) leaves every other assignment represented
   exactly as before *)
Theorem C10_locality :
  forall outcome outcome' s d, NoDup (map d_name (flatten s)) ->
    (forall x, x <> d -> outcome x = outcome' x) ->
    forall d', In d' (flatten s) -> d' <> d ->
      (Proofs.Driver.represented outcome s d' <-> Proofs.Driver.represented outcome' s d').
Proof. exact Proofs.Driver.locality. Qed.

(* the hypothesis of distinct bare names is needed: assignments of the same name in different modules collide in the
   map and the earlier one disappears without a warning (known finding C10-duplicate-bare-names) *)
Definition mA : str := [77; 49]%N.   Definition mB : str := [77; 50]%N.   Definition nA : str := [65]%N.
Theorem C10_duplicate_names_refuted :
  let s := [[[mkdef mA nA 1]; [mkdef mB nA 2]]] in
  blocks (fun _ => Present) s = [(mB, [nA])] /\ warning_subjects (fun _ => Present) s = [].
Proof. vm_compute. split; reflexivity. Qed.

(* non-vacuity *)
Example C10_example :
  blocks (fun d => if N.eqb (d_id d) 2 then WarnedGen else Present)
         [[[mkdef mA nA 1; mkdef mA [66]%N 2]; [mkdef mB [67]%N 3]]]
  = [(mA, [nA]); (mB, [[67]%N])].
Proof. vm_compute. reflexivity. Qed.
