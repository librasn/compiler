(* C02 -- Constructed types keep every component, in order, with the right shape.
   Model: Model/Components.v (assembly of the parsed component lists; one field / variant per member; the written
   type of a member) over the name conversions of Model/Names.v.  That the parser delivers the component lists it is
   given in source order, that nested anonymous types are emitted under the inner name, and the SET markers are decided
   by the correspondence and the search on real bindings. *)
From Coq Require Import NArith Arith List Bool.
Require Import RasnV.Model.Base RasnV.Model.Names RasnV.Model.Components.
Require RasnV.Model.Expansion RasnV.Proofs.C02 RasnV.Proofs.C02Link.
Import ListNotations.

(* SEQUENCE / SET, any number of components before and after the extension marker (or no marker): exactly one field per
   component, in source order; each field has the component's converted name, its written type wrapped in Option<_>
   exactly when it is OPTIONAL (or an extension group), a default function exactly when it is DEFAULT, and is an
   extension addition exactly when it was written after the marker *)
Theorem C02_fields :
  forall parent r marker a,
    fields_of parent (assemble (map CMember r) marker (map CMember a)) =
    map (Proofs.C02.spec_field parent false) r ++ map (Proofs.C02.spec_field parent marker) a.
Proof. intros. now rewrite Proofs.C02.fields_of_assembled_any, !Proofs.C02.only_members_map. Qed.

(* CHOICE: exactly one variant per alternative, in source order *)
Theorem C02_variants :
  forall parent r marker a,
    variants_of parent (assemble (map CMember r) marker (map CMember a)) =
    map (Proofs.C02.spec_variant parent false) r ++ map (Proofs.C02.spec_variant parent marker) a.
Proof. intros. now rewrite Proofs.C02.variants_of_assembled_any, !Proofs.C02.only_members_map. Qed.

(* nothing is added, dropped, duplicated or reordered *)
Theorem C02_names_in_order :
  forall parent r marker a,
    map f_name (fields_of parent (assemble (map CMember r) marker (map CMember a))) = map (fun m => snake (m_name m)) (r ++ a).
Proof. intros. now rewrite C02_fields, map_app, !map_map, map_app. Qed.

Theorem C02_default_exactly :
  forall parent add m, f_default (Proofs.C02.spec_field parent add m) <> None <-> m_opt m = Default.
Proof.
  intros. unfold Proofs.C02.spec_field. cbn [f_default]. destruct (m_opt m); split; intro H; congruence.
Qed.

(* recursive components written in place or by reference are boxed *)
Theorem C02_recursive_boxed :
  forall name parent t,
    match t with KNested | KRef _ _ => True | _ => needs_unnesting t = true end ->
    exists inner, written_type t name parent true = s_box_l ++ inner ++ s_gt.
Proof.
  unfold written_type. intros name parent t H. destruct t; cbn [needs_unnesting type_name] in *;
    try discriminate; rewrite ?H; eexists; reflexivity.
Qed.

(* the plain-member hypothesis of C02_fields is not needed for the type's own components: COMPONENTS OF entries, wherever
   they are written, change neither the order nor the root / addition status of the components around them (refuted until
   the fix of C02-components-of-extension-index, when an entry in the root was counted in the index of the first addition) *)
Theorem C02_fields_around_components_of :
  forall parent root marker adds,
    fields_of parent (assemble root marker adds) =
    map (Proofs.C02.spec_field parent false) (only_members root) ++ map (Proofs.C02.spec_field parent marker) (only_members adds).
Proof. exact Proofs.C02.fields_of_assembled_any. Qed.

(* the index of the first addition does not count COMPONENTS OF entries of the root (it did until the fix of
   C02-components-of-extension-index: `extensible = Some 2`, no addition marked) *)
Example C02_components_of_index_example :
  let s := assemble [CComponentsOf [88]%N; CMember Proofs.C02.mA] true [CMember Proofs.C02.mB] in
  members s = [Proofs.C02.mA; Proofs.C02.mB] /\ extensible s = Some 1%nat /\
  map f_ext (fields_of [80]%N s) = [0%N; 1%N].
Proof. vm_compute. repeat split. Qed.

(* across the linker: the components copied for COMPONENTS OF join the extension root of the including type, in order,
   behind its own root components, and the type's own additions -- all of them and nothing else -- stay additions
   (that they stand behind the own root components instead of at the place of the notation is the known finding
   C09-components-of-appended; their root / addition status is right) *)
Theorem C02_copied_components_join_root :
  forall own_root own_adds copied,
    Expansion.link_marked own_root own_adds copied true =
    map (fun x => (x, false)) (own_root ++ copied) ++ map (fun x => (x, true)) own_adds.
Proof.
  intros own_root own_adds copied. unfold Expansion.link_marked.
  rewrite Proofs.C02Link.link_insert_some, app_assoc, Proofs.C02Link.flag_from_imap.
  exact (Proofs.Indexed.imap_root_adds (fun b x => (x, b)) true (own_root ++ copied) own_adds).
Qed.

Theorem C02_copied_components_without_marker :
  forall own_root own_adds copied,
    Expansion.link_marked own_root own_adds copied false = map (fun x => (x, false)) ((own_root ++ own_adds) ++ copied).
Proof.
  intros own_root own_adds copied. unfold Expansion.link_marked.
  rewrite Proofs.C02Link.link_insert_none, Proofs.C02Link.flag_from_imap. now apply Proofs.Indexed.imap_const.
Qed.

Example C02_copied_components_example :
  Expansion.link_marked [[97]%N] [[98]%N] [[120]%N; [121]%N] true =
  [([97]%N, false); ([120]%N, false); ([121]%N, false); ([98]%N, true)].
Proof. exact Proofs.C02Link.link_marked_example. Qed.
