(* C07 -- Value assignments and DEFAULTs denote the source abstract value.
   Model: Model/Values.v (literal lexers, bit/octet conversions, named bits, OID arc resolution) over the generated
   tables Gen/T04.v (hex_to_bools) and Gen/T05.v (ObjectIdentifierArc::well_known); reference: Spec/ValSpec.v.
   The composition of these leaves through the linker and the generator (value references, governing types, CHOICE /
   SEQUENCE / SEQUENCE OF values, DEFAULTs) is decided by the search: a symbolic evaluation of every generated
   initialiser against the value written in the source. *)
From Coq Require Import ZArith NArith Arith List Bool.
Require Import RasnV.Model.Base RasnV.Model.Scan RasnV.Gen.T04 RasnV.Gen.T05 RasnV.Model.Values RasnV.Spec.ValSpec.
Require RasnV.Proofs.C07 RasnV.Proofs.C07Lines.
Import ListNotations.

(* an hstring of any length denotes, digit by digit, the 4-bit big-endian expansion of each digit *)
Theorem C07_hstring :
  forall ds rest, forallb is_hexdigit ds = true ->
    lex_bits (APOS :: ds ++ APOS :: 72%N :: rest) = Some (flat_map (fun c => bits_be 4 (hexval c)) ds, rest).
Proof.
  intros ds rest H. rewrite <- (Proofs.C07.hstring_spec ds H).
  exact (Proofs.C07.lex_bits_quoted [] ds 72 rest RasnV.Spec.Trivia.T_nil H).
Qed.

(* a bstring of any length denotes bit i = (digit i is `1`) *)
Theorem C07_bstring :
  forall ds rest, forallb is_hexdigit ds = true ->
    exists bits, lex_bits (APOS :: ds ++ APOS :: 66%N :: rest) = Some (bits, rest) /\
      length bits = length ds /\
      forall i, (i < length ds)%nat -> nth i bits false = N.eqb (nth i ds 0%N) 49.
Proof.
  intros ds rest H. exists (bstring_bits ds). split; [exact (Proofs.C07.lex_bits_quoted [] ds 66 rest RasnV.Spec.Trivia.T_nil H)|].
  split; [apply Proofs.C07.bstring_length | intros i Hi; now apply Proofs.C07.bstring_spec].
Qed.

(* octets -> bits: every octet becomes its 8-bit big-endian expansion; and back, losing nothing, both ways *)
Theorem C07_octets_to_bits :
  forall bs, Forall (fun b => (b < 256)%N) bs -> octets_to_bits bs = flat_map (bits_be 8) bs.
Proof. exact Proofs.C07.octets_to_bits_spec. Qed.

Theorem C07_octets_roundtrip :
  forall bs, Forall (fun b => (b < 256)%N) bs -> bits_to_octets (octets_to_bits bs) = Some bs.
Proof.
  intros bs H. rewrite (Proofs.C07.octets_to_bits_spec bs H).
  apply Proofs.C07.bits_to_octets_f_roundtrip; [exact H | apply Nat.lt_succ_diag_r].
Qed.

Theorem C07_bits_to_octets_exact :
  forall bits bs, bits_to_octets bits = Some bs ->
    octets_to_bits bs = bits /\ Forall (fun b => (b < 256)%N) bs.
Proof.
  intros bits bs H. apply Proofs.C07.bits_to_octets_f_inv in H as [-> H].
  split; [exact (Proofs.C07.octets_to_bits_spec bs H) | exact H].
Qed.

(* a named-bit list denotes ones exactly at the positions of the chosen names (and has highest+1 bits; trailing zero
   bits are not significant for a type with named bits, X.680 22.7) *)
Theorem C07_named_bits :
  forall h chosen dist, NoDup (map snd dist) ->
    length (named_bits h chosen dist) = Z.to_nat (h + 1) /\
    forall i, (0 <= i <= h)%Z ->
      (nth (Z.to_nat i) (named_bits h chosen dist) false = true <-> exists n, In n chosen /\ In (n, i) dist).
Proof.
  intros h chosen dist Hnd. split; [apply Proofs.C07.named_bits_length|].
  intros i Hi. rewrite (Proofs.C07.named_bits_nth h chosen dist i Hi).
  split; intros (n & Hn & H); exists n; (split; [exact Hn|]); now apply (Proofs.C07.find_name_iff i dist n Hnd).
Qed.

(* a cstring on one line: any text s, written with its quotation marks doubled, followed by anything that does not
   begin with a quotation mark, lexes to exactly s and leaves exactly the rest *)
Theorem C07_cstring :
  forall s rest, Proofs.C07.no_nl s -> N.eqb (hd 0%N rest) QUOTE = false ->
    cstring (QUOTE :: escape s ++ QUOTE :: rest) = Some (s, rest).
Proof.
  intros s rest Hs Hr. pose proof (Proofs.C07Lines.cstring_lines s [] rest Hs) as H.
  cbn [Proofs.C07Lines.src_rest Proofs.C07Lines.texts] in H. rewrite !app_nil_r in H. now apply H.
Qed.

(* a cstring broken over two lines: the line break and the spacing around it are not part of the value (X.680 12.14.1).
   One break here; any number of breaks in C07_cstring_lines below. *)
Theorem C07_cstring_two_lines :
  forall a b sp1 nl sp2 rest,
    Proofs.C07.no_nl a -> Proofs.C07.no_nl b -> Proofs.C07.spacing sp1 -> Proofs.C07.spacing sp2 -> is_nl nl = true ->
    is_sp (last a 0%N) = false -> is_sp (hd 0%N b) = false ->
    N.eqb (hd 0%N rest) QUOTE = false ->
    cstring (QUOTE :: (escape a ++ sp1 ++ nl :: sp2 ++ escape b) ++ QUOTE :: rest) = Some (a ++ b, rest).
Proof.
  intros a b sp1 nl sp2 rest Ha Hb H1 H2 Hn Hla Hhb Hr.
  pose proof (Proofs.C07Lines.cstring_lines a [Proofs.C07Lines.mkseg sp1 nl sp2 b] rest Ha) as H.
  cbn [Proofs.C07Lines.src_rest Proofs.C07Lines.texts Proofs.C07Lines.good_segs Proofs.C07Lines.g_sp1
       Proofs.C07Lines.g_nl Proofs.C07Lines.g_sp2 Proofs.C07Lines.g_text] in H.
  rewrite !app_nil_r in H. apply H; [now intros _ | repeat split; (assumption || congruence) | exact Hr].
Qed.

(* any number of continuation lines, each `spacing, line break, spacing, text`: the literal denotes the concatenation of
   the texts; a text may be empty (a blank line), inner texts neither begin nor end with spacing (that spacing would be
   indistinguishable from the spacing around the break, which X.680 12.14.1 removes) *)
Theorem C07_cstring_lines :
  forall a segs rest,
    Proofs.C07.no_nl a -> (segs <> [] -> is_sp (last a 0%N) = false) -> Proofs.C07Lines.good_segs segs ->
    N.eqb (hd 0%N rest) QUOTE = false ->
    cstring (QUOTE :: (escape a ++ Proofs.C07Lines.src_rest segs) ++ QUOTE :: rest)
    = Some (a ++ Proofs.C07Lines.texts segs, rest).
Proof. exact Proofs.C07Lines.cstring_lines. Qed.

(* ab SP LF TAB c QUOTE QUOTE d CR LF SP SP e between quotation marks -- three breaks, an empty text between CR and LF,
   a doubled quotation mark -- denotes a b c QUOTE d e *)
Example C07_cstring_lines_applies :
  let segs := [Proofs.C07Lines.mkseg [32] 10 [9] [99; 34; 100]; Proofs.C07Lines.mkseg [] 13 [] []; Proofs.C07Lines.mkseg [] 10 [32; 32] [101]]%N in
  and (Proofs.C07Lines.good_segs segs)
      (cstring (QUOTE :: ([97%N; 98%N] ++ Proofs.C07Lines.src_rest segs) ++ QUOTE :: [32%N]) = Some ([97; 98; 99; 34; 100; 101]%N, [32%N])).
Proof.
  split.
  - cbn. repeat split; try (repeat constructor); intros; try reflexivity; try discriminate.
  - vm_compute. reflexivity.
Qed.

(* OBJECT IDENTIFIER values without value references: every arc resolves to the number X.660 assigns, for the
   number, name(number) and bare-name forms; the bare letter arcs a..z under {itu-t recommendation} are the known
   finding C07-oid-letter-arcs and are excluded.  A first arc written name(number) with a root name is taken to carry
   that root's own number (wf_first): the code looks at the name first, the specification at the number. *)
Theorem C07_oid :
  forall (arcs : list src_arc) ns,
    match arcs with a :: _ => Proofs.C07.wf_first a = true | [] => True end ->
    has_bare_letter arcs = false ->
    oid_sem arcs = Some ns ->
    oid_numbers (map Proofs.C07.to_arc arcs) = Some ns.
Proof. exact Proofs.C07.oid_numbers_spec. Qed.

(* non-vacuity *)
Example C07_example_hstring :
  lex_bits [39; 65; 53; 39; 72; 32]%N = Some ([true; false; true; false; false; true; false; true], [32]%N).
Proof. vm_compute. reflexivity. Qed.

Example C07_example_cstring :    (* quote a quote quote b quote space x  ->  a quote b *)
  cstring [34; 97; 34; 34; 98; 34; 32; 120]%N = Some ([97; 34; 98]%N, [32; 120]%N).
Proof. vm_compute. reflexivity. Qed.

Example C07_example_cstring_later_doubled :   (* two strings, the second holding a doubled quotation mark: the first ends at its own quotation mark *)
  cstring [34; 120; 34; 32; 34; 121; 34; 34; 122; 34]%N = Some ([120]%N, [32; 34; 121; 34; 34; 122; 34]%N).
Proof. vm_compute. reflexivity. Qed.

Example C07_example_cstring_lines :   (* quote a b space space LF space space c d quote  ->  a b c d *)
  cstring [34; 97; 98; 32; 32; 10; 32; 32; 99; 100; 34]%N = Some ([97; 98; 99; 100]%N, []).
Proof. vm_compute. reflexivity. Qed.

Example C07_example_oid :   (* { iso standard 8571 } *)
  oid_sem [(Some [105; 115; 111]%N, None); (Some [115; 116; 97; 110; 100; 97; 114; 100]%N, None); (None, Some 8571%N)]
  = Some [1; 0; 8571]%N.
Proof. vm_compute. reflexivity. Qed.

Example C07_example_named_bits :
  named_bits 7 [[102]%N; [108]%N] [([102]%N, 0%Z); ([116]%N, 2%Z); ([108]%N, 7%Z)]
  = [true; false; false; false; false; false; false; true].
Proof. vm_compute. reflexivity. Qed.
