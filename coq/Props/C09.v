(* C09 -- Notations defined by expansion compile like their hand-expanded form.
   Model: Model/Expansion.v (the linker's COMPONENTS OF pass and the selection type, next to the meaning of the
   notations).  The proved part: the whole pass yields the expansion for every chain of COMPONENTS OF that is not circular
   and whose notations come last in their lists (any depth, any name order, SEQUENCE or SET); one linking step; the
   selection type picks the named alternative.  For a notation that does not come last the statement is FALSE of the code
   (one refuted theorem = the known finding C09-components-of-appended; two more, COMPONENTS OF a SET type and chains whose
   middle type is linked late, were repaired in /repo and are now Examples); value references in constraints,
   parameterized types and class field types are decided by the search (sugared module versus hand-expanded module). *)
From Coq Require Import NArith List Bool.
Require Import RasnV.Model.Base RasnV.Model.Driver RasnV.Model.Expansion.
Require RasnV.Proofs.C09 RasnV.Proofs.C09Chain RasnV.Proofs.C09Perm.
From Coq Require Import Permutation.
Import ListNotations.

(* one linking step is right when the notation comes last and the referenced types, of the kind (SEQUENCE / SET) of the
   including one, are not being visited and are already in their expanded state *)
Theorem C09_components_of_step_partial :
  forall f fuel ds st v n k own refs,
    (forall r, In r refs -> mem_str r v = false /\ exists d t,
         find_def r ds = Some d /\ t_is_seq d = k /\ find_state r st = Some t /\ l_refs t = [] /\
         l_members t = expand f ds k (t_items d)) ->
    l_members (link_full (S fuel) st v (init_state (mktdef n k (map Own own ++ map ComponentsOf refs)))) =
    expand (S f) ds k (map Own own ++ map ComponentsOf refs).
Proof.
  intros f fuel ds st v n k own refs H.
  rewrite (Proofs.C09.expand_trailing f ds k _ own refs eq_refl), Proofs.C09.link_full_members. cbn [t_items].
  destruct (Proofs.C09.trailing_parts own refs) as [-> ->]. f_equal.
  apply flat_map_ext_in. intros r Hr. destruct (H r Hr) as (Hv & d & t & Hd & Hk & Ht & Hr0 & Hm).
  now rewrite Hv, Ht, (Proofs.C09.link_full_norefs _ _ _ _ Hr0), Hd, Hk, Hm, Bool.eqb_reflx.
Qed.

Theorem C09_selection :
  forall alts alt t, NoDup (map fst alts) -> In (alt, t) alts -> select alts alt = Some t.
Proof. exact Proofs.C09.select_first. Qed.

(* the full statement -- linked_members ds n = expanded_members ds n for every definition -- does not hold: *)
Theorem C09_components_of_appended_refuted :
  let ds := [mktdef Proofs.C09.nS true [Own Proofs.C09.na]; mktdef Proofs.C09.nT true [ComponentsOf Proofs.C09.nS; Own Proofs.C09.ne]] in
  expanded_members ds Proofs.C09.nT = Some [Proofs.C09.na; Proofs.C09.ne] /\
  linked_members ds Proofs.C09.nT = Some [Proofs.C09.ne; Proofs.C09.na].
Proof. vm_compute. split; reflexivity. Qed.

(* a chain whose middle type is linked after the type that includes it: refuted until the fix of
   C09-components-of-chain-order (the outer type got [flag; label]), now an instance of C09_pass_acyclic_chain *)
Example C09_components_of_chain_linked :
  let ds := [mktdef Proofs.C09.nA true [Own Proofs.C09.n_id];
             mktdef Proofs.C09.nM true [Own Proofs.C09.n_label; ComponentsOf Proofs.C09.nA];
             mktdef Proofs.C09.nZ true [Own Proofs.C09.n_flag; ComponentsOf Proofs.C09.nM]] in
  expanded_members ds Proofs.C09.nZ = Some [Proofs.C09.n_flag; Proofs.C09.n_label; Proofs.C09.n_id] /\
  linked_members ds Proofs.C09.nZ = Some [Proofs.C09.n_flag; Proofs.C09.n_label; Proofs.C09.n_id].
Proof. vm_compute. split; reflexivity. Qed.

(* COMPONENTS OF a SET type: refuted until the fix of the SET case, now an instance of C09_pass_depth_one with k = false *)
Example C09_components_of_set_linked :
  let ds := [mktdef Proofs.C09.nS false [Own Proofs.C09.na]; mktdef Proofs.C09.nT false [Own Proofs.C09.ne; ComponentsOf Proofs.C09.nS]] in
  expanded_members ds Proofs.C09.nT = Some [Proofs.C09.ne; Proofs.C09.na] /\ linked_members ds Proofs.C09.nT = Some [Proofs.C09.ne; Proofs.C09.na].
Proof. vm_compute. split; reflexivity. Qed.

(* ... but it does hold, for the whole pass over any module and any processing order the names induce, whenever the
   COMPONENTS OF entries come last and refer to types of the same kind (k: SEQUENCE / SET) that use no COMPONENTS OF themselves: *)
Theorem C09_pass_depth_one :
  forall ds n k own refs,
    NoDup (map t_name ds) ->
    find_def n ds = Some (mktdef n k (map Own own ++ map ComponentsOf refs)) ->
    (forall r, In r refs -> r <> n /\ exists dr, find_def r ds = Some dr /\ t_is_seq dr = k /\ refs_of (t_items dr) = []) ->
    linked_members ds n = expanded_members ds n.
Proof. exact Proofs.C09Chain.link_pass_depth_one. Qed.

Example C09_pass_depth_one_applies :
  let ds := [mktdef Proofs.C09.nS true [Own Proofs.C09.na]; mktdef Proofs.C09.nT true [Own Proofs.C09.ne; ComponentsOf Proofs.C09.nS]] in
  linked_members ds Proofs.C09.nT = Some [Proofs.C09.ne; Proofs.C09.na] /\
  expanded_members ds Proofs.C09.nT = Some [Proofs.C09.ne; Proofs.C09.na].
Proof. vm_compute. split; reflexivity. Qed.

(* ... and for chains of ANY depth in ANY name order, SEQUENCE or SET: whenever the chain headed by n is not circular -- there
   is a rank that decreases along the references, bounded by the number of definitions as the height of a type in its chain
   is -- and the COMPONENTS OF entries come last in every list of the chain.  A corollary of C09_pass_appended_exactly below:
   with the notations last, the list it gives is the expansion. *)
Theorem C09_pass_acyclic_chain :
  forall ds (rank : str -> nat),
    (forall y, rank y <= length ds) ->
    forall n, NoDup (map t_name ds) -> acyclic_chain ds rank n -> linked_members ds n = expanded_members ds n.
Proof. exact Proofs.C09Chain.link_pass_acyclic. Qed.

Example C09_pass_acyclic_chain_applies :
  NoDup (map t_name Proofs.C09Chain.ds_chain) /\ (forall y, Proofs.C09Chain.rank_chain y <= length Proofs.C09Chain.ds_chain) /\
  acyclic_chain Proofs.C09Chain.ds_chain Proofs.C09Chain.rank_chain Proofs.C09.nZ /\
  linked_members Proofs.C09Chain.ds_chain Proofs.C09.nZ = Some [Proofs.C09.n_flag; Proofs.C09.n_label; Proofs.C09.n_id].
Proof. exact Proofs.C09Chain.acyclic_chain_applies. Qed.

(* ... and with the notations at ANY position the pass loses, adds and duplicates nothing: for every chain that is not circular
   the linked fields are a permutation of the meaning of the notation -- exactly the type's own components followed by what each
   notation stands for, in the order of the notations.  The known finding C09-components-of-appended is about order only. *)
Theorem C09_pass_permutation :
  forall ds (rank : str -> nat),
    (forall y, rank y <= length ds) ->
    forall n, NoDup (map t_name ds) -> any_chain ds rank n ->
    exists l e, linked_members ds n = Some l /\ expanded_members ds n = Some e /\ Permutation e l.
Proof.
  intros ds rank Hb n Hnd Hac. inversion Hac as [n0 d Hd _]; subst n0.
  exists (appended (length ds) ds (t_is_seq d) (t_items d)), (expand (length ds) ds (t_is_seq d) (t_items d)).
  split; [now apply (Proofs.C09Perm.link_pass_appended ds rank)|]. split; [unfold expanded_members; now rewrite Hd|].
  apply Proofs.C09Perm.expand_perm_appended.
Qed.

(* Invariant over the fold: every definition is either as parsed or finished (nothing pending, the members [appended] gives
   it); a referenced type that is not finished is linked on a copy first, and the rank shows that neither the visiting list nor
   the removed entry ever hides a reference. *)
Theorem C09_pass_appended_exactly :
  forall ds (rank : str -> nat),
    (forall y, rank y <= length ds) ->
    forall n d, NoDup (map t_name ds) -> any_chain ds rank n -> find_def n ds = Some d ->
    linked_members ds n = Some (appended (length ds) ds (t_is_seq d) (t_items d)).
Proof. exact Proofs.C09Perm.link_pass_appended. Qed.

Example C09_pass_permutation_applies :
  NoDup (map t_name Proofs.C09Perm.ds_front) /\ (forall y, Proofs.C09Perm.rank_front y <= length Proofs.C09Perm.ds_front) /\
  any_chain Proofs.C09Perm.ds_front Proofs.C09Perm.rank_front Proofs.C09.nT /\
  linked_members Proofs.C09Perm.ds_front Proofs.C09.nT = Some [Proofs.C09.ne; Proofs.C09.na] /\
  expanded_members Proofs.C09Perm.ds_front Proofs.C09.nT = Some [Proofs.C09.na; Proofs.C09.ne].
Proof. exact Proofs.C09Perm.permutation_applies. Qed.
