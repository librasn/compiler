(* C18 -- TypeScript declarations have the JER shape of each type.
   Model: Model/TsGen.v (type_to_tokens, array_of, the member / option formatters and the per-kind templates, as token
   sequences); reference: Spec/TsShape.v (the X.697 shape of a type and its canonical TypeScript notation).
   That each type assignment yields exactly one declaration in its namespace, that every mentioned name is declared or
   imported, and that the real output tokenises to the model's tokens are decided by the correspondence and the search. *)
From Coq Require Import NArith List Bool.
Require Import RasnV.Model.Base RasnV.Model.TsGen RasnV.Spec.TsShape.
Require RasnV.Proofs.C18.
Import ListNotations.

(* for every type, of any nesting depth and width: the rendered declaration is the canonical notation of the type's
   JER shape -- members in order with `?` exactly where the component is OPTIONAL or DEFAULT, arrays for SEQUENCE OF /
   SET OF (a union element parenthesised), string literal unions of the enumeral names as written, a union of
   single-key objects for CHOICE, the index signature exactly when the SEQUENCE / SET is extensible, hyphens mangled
   in every identifier *)
Theorem C18_declaration_is_jer_shape :
  forall name t, decl_tokens name t = print_decl (jer_decl name t).
Proof. exact Proofs.C18.decl_canonical. Qed.

Theorem C18_type_is_jer_shape :
  forall t, type_tokens t = print_shape (jer_shape t).
Proof. exact Proofs.C18.render_canonical. Qed.

(* braces, brackets and parentheses of every declaration are balanced *)
Theorem C18_balanced :
  forall name t, ident_like name = true -> wf_names t = true -> bal [] (decl_tokens name t) = true.
Proof.
  intros name t Hn Hwf. rewrite <- (app_nil_r (decl_tokens name t)).
  exact (Proofs.C18.decl_tokens_balanced name t Hn Hwf [] []).
Qed.

(* non-vacuity: A-b ::= SEQUENCE { x-y INTEGER, o BOOLEAN OPTIONAL, l SEQUENCE OF CHOICE { u NULL }, ... } *)
Example C18_example :
  let t := TStruct [([120;45;121]%N, false, TNum); ([111]%N, true, TBool);
                    ([108]%N, false, TOf (TChoice [([117]%N, TNull)]))] true in
  wf_names t = true /\
  jer_shape t = SObj [([120;95;121]%N, false, SNumber); ([111]%N, true, SBool);
                      ([108]%N, false, SArr (SKeys [([117]%N, SNull)]))] true /\
  bal [] (decl_tokens [65;45;98]%N t) = true.
Proof. vm_compute. repeat split. Qed.
