(* C06 -- The chosen Rust integer type can hold every permitted value.
   The ladders are Gen/T06.v and Gen/T07.v, re-translated from /repo on every run. *)
From Coq Require Import ZArith List Bool.
Require Import RasnV.Model.Base RasnV.Gen.T06 RasnV.Gen.T07 RasnV.Model.IntWidth RasnV.Spec.IntFits.
Require RasnV.Proofs.C06.
Import ListNotations.
Local Open Scope Z_scope.

(* components / elements / constrained references: width from the folded PER-visible range *)
Theorem C06_component_width_sound :
  forall (omin omax : option Z) (ext : bool) (z : Z),
    ge_opt omin z -> le_opt z omax -> fits (int_type_token omin omax ext) z.
Proof. exact Proofs.C06.token_sound. Qed.

Theorem C06_component_fixed_only_if :
  forall omin omax ext, int_type_token omin omax ext <> Unbounded ->
    ext = false /\ exists lo hi, omin = Some lo /\ omax = Some hi.
Proof. exact Proofs.C06.token_fixed_only_if. Qed.

(* type assignments and linked values: per-constraint width, most restrictive wins *)
Theorem C06_assignment_width_sound :
  forall (cs : list int_constraint) (z : Z),
    in_i128 z -> Forall (fun c => permits c z) cs -> fits (int_type cs) z.
Proof. intros cs z _. apply Proofs.C06.int_type_sound. Qed.

(* a fixed-width type needs a finite, unmarked serial constraint AND an unmarked last constraint -- the one that decides
   whether the resulting type is extensible (X.680 50.8).  The second half was false of the code until the fix of
   C06-serial-extensible-fixed-width: `INTEGER (0..10)(2..5, ...)` got u8. *)
Theorem C06_assignment_fixed_only_if :
  forall cs, int_type cs <> Unbounded -> Exists finite_nonext cs /\ last_extensible cs = false.
Proof. exact Proofs.C06.int_type_fixed_only_if. Qed.

Example C06_example_serial_extensible :
  int_type [CRange (Some 0) (Some 10) false false; CRange (Some 2) (Some 5) true false] = Unbounded /\
  int_type [CRange (Some 0) (Some 10) true false; CRange (Some 2) (Some 5) false false] = Uint8.
Proof. split; reflexivity. Qed.

Theorem C06_max_restrictive_sound :
  forall a b z, fits a z -> fits b z -> fits (max_restrictive a b) z.
Proof. intros a b z Ha Hb. destruct (Proofs.C06.max_restrictive_either a b) as [E|E]; rewrite E; assumption. Qed.

Theorem C06_max_restrictive_unbounded :
  forall a b, max_restrictive a b = Unbounded -> a = Unbounded /\ b = Unbounded.
Proof. intros [] []; cbn; intro H; try discriminate; auto. Qed.

(* non-vacuity: concrete non-trivial instances *)
Example C06_example_component : int_type_token (Some (-129)) (Some 127) false = Int16 /\ fits Int16 (-129).
Proof. split; [reflexivity | cbv; split; discriminate]. Qed.

Example C06_example_assignment :
  int_type [CRange (Some 0) (Some 70000) false false; CRange (Some 5) (Some 300) false false] = Uint16
  /\ Forall (fun c => permits c 300) [CRange (Some 0) (Some 70000) false false; CRange (Some 5) (Some 300) false false].
Proof.
  split; [reflexivity|].
  constructor; [right; right; cbn; split; discriminate|].
  constructor; [right; right; cbn; split; discriminate|]. constructor.
Qed.
