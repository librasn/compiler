(* C20 -- compile() delivers exactly the compiled text, and nothing on failure.
   Model: Model/Deliver.v.  The file system is abstracted to the places compile() can touch; that the real compile(),
   the command-line tool and the asn1! wrapper behave as the model on real destinations is decided by the correspondence
   (real directories, real child processes). *)
From Coq Require Import NArith List Bool.
Require Import RasnV.Model.Base RasnV.Model.Deliver.
Require RasnV.Proofs.C20.
Import ListNotations.

(* when compilation fails nothing is written or overwritten, in any output mode and any destination state *)
Theorem C20_failure_writes_nothing : forall m f, compile m f None = (f, [], Err).
Proof. reflexivity. Qed.

(* file mode, writable destination: exactly the text, at the path or at generated.<ext> inside a directory; the
   bystander and everything else stay as they were; nothing on standard output *)
Theorem C20_single_file_delivers :
  forall f text, Proofs.C20.writable f = true ->
    exists f', compile MSingleFile f (Some text) = (f', [], Ok) /\
      Proofs.C20.delivered_at f' = File text /\
      bystander f' = bystander f /\
      (dest f = Dir -> dest f' = Dir) /\
      (dest f <> Dir -> dest_gen f' = dest_gen f).
Proof.
  intros f text H. unfold compile. rewrite Proofs.C20.write_spec, H. eexists. split; [reflexivity|].
  unfold Proofs.C20.delivered_at. destruct (dest f); cbn; repeat split; congruence.
Qed.

(* an unwritable destination is an Err and changes nothing *)
Theorem C20_unwritable_is_err :
  forall f text, Proofs.C20.writable f = false -> compile MSingleFile f (Some text) = (f, [], Err).
Proof. intros f text H. unfold compile. now rewrite Proofs.C20.write_spec, H. Qed.

Theorem C20_stdout_delivers : forall f text, compile MStdout f (Some text) = (f, text, Ok).
Proof. reflexivity. Qed.

Theorem C20_no_output : forall f text, compile MNoOutput f (Some text) = (f, [], Ok).
Proof. reflexivity. Qed.

(* the command-line tool succeeds exactly when it has modules and the library returns Ok; it picks up exactly the
   files ending in .asn or .asn1 *)
Theorem C20_cli_exit : forall have o, cli_exit have o = 0%N <-> (have = true /\ o = Ok).
Proof. intros [|] [|]; cbn; (split; [intro H | intros [H1 H2]]); try discriminate; auto. Qed.

Theorem C20_cli_module_files :
  forall name, is_module_file name = true <-> (exists p, name = p ++ dot_asn) \/ (exists p, name = p ++ dot_asn1).
Proof. intro name. unfold is_module_file. now rewrite orb_true_iff, !Proofs.C20.ends_with_spec. Qed.

(* non-vacuity: an existing file with other content is replaced by exactly the text *)
Example C20_example :
  compile MSingleFile (mkfs true (File [111;108;100]%N) Absent (File [98]%N)) (Some [110;101;119]%N)
  = (mkfs true (File [110;101;119]%N) Absent (File [98]%N), [], Ok).
Proof. reflexivity. Qed.

(* asn1!: a snippet without the word BEGIN is compiled inside the dummy module of the derive crate (header and footer
   re-read from rasn-compiler-derive on every run: Gen/T20.v, which also pins the expansion to
   compile_to_string().unwrap().generated.parse().unwrap() of the rasn back end); anything else is compiled as given *)
Require RasnV.Gen.T20.
Theorem C20_macro_source :
  forall v, macro_source Gen.T20.macro_header Gen.T20.macro_footer v =
            if contains kw_begin v then v else Gen.T20.macro_header ++ v ++ Gen.T20.macro_footer.
Proof. reflexivity. Qed.
