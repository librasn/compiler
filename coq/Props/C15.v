(* C15 -- Permitted-alphabet annotations denote exactly the FROM constraint.
   Model: Model/Alphabet.v over Model/PerVisible.v; tables Gen/T03.v (re-translated every run).
   Theorem domain: one FROM constraint whose operands (character strings of any length, ranges
   between two characters) are combined with `|`; the other operators are the known finding
   C15-operators-in-from (refutation below). *)
From Coq Require Import ZArith NArith List Bool.
Require Import RasnV.Model.Base RasnV.Model.PerVisible RasnV.Gen.T03 RasnV.Model.Alphabet RasnV.Spec.AlphaSpec.
Require RasnV.Proofs.C15.
Import ListNotations.

(* string types that are not known-multiplier get no alphabet annotation, whatever their constraints *)
Theorem C15_none_for_unknown_multiplier :
  forall fuel t cs, known_multiplier t = false -> alphabet_annotation fuel t cs = Ok None.
Proof.
  intros fuel t [|c r] H; [reflexivity|]. unfold alphabet_annotation. rewrite (Proofs.C15.collect_unknown fuel t (c :: r) H). reflexivity.
Qed.

(* the annotation (after sorting) denotes exactly the characters the FROM expression permits *)
Theorem C15_union_exact :
  forall fuel t inner ann,
    known_multiplier t = true -> union_only inner = true -> simple_alpha inner = true ->
    alphabet_annotation fuel t [{| cset := El (Alpha inner); cext := false |}] = Ok ann ->
    forall c, denote (match ann with Some l => l | None => [] end) c = semb_alpha_rn inner c.
Proof. exact Proofs.C15.annotation_union_exact. Qed.

(* every single character, and both ends of every range, belong to the base alphabet *)
Theorem C15_within_base :
  forall cs e l,
    simple_alpha_elem e = true -> from_elem cs e = Ok (Some l) -> forallb (subset_chars_in cs) l = true.
Proof. intros cs e l Hs Hf. destruct (Proofs.C15.from_elem_simple cs e _ Hs Hf) as (l' & [= <-] & _ & H). exact H. Qed.

(* sorting by first character (finalize) is irrelevant to the denoted set *)
Theorem C15_order_irrelevant : forall l c, denote (sort_subsets l) c = denote l c.
Proof. exact Proofs.C15.denote_sort. Qed.

(* known finding: `^` and EXCEPT inside FROM are read as `|` *)
Theorem C15_operators_refuted :
  exists inner l c,
    from_alpha_inner ia5_charset inner = Ok l /\ simple_alpha inner = true
    /\ denote l c = true /\ semb_alpha_rn inner c = false.
Proof.
  exists (SetOp (Single (VStr [65; 66]%N) false) Inter (El (Single (VStr [66; 67]%N) false))).
  eexists. exists 65%N. split; [lazy; reflexivity|]. repeat split; reflexivity.
Qed.

(* non-vacuity: IA5String (FROM ("AB" | "x".."z")) *)
Example C15_example :
  let inner := SetOp (Single (VStr [65; 66]%N) false) Union (El (Range (Some (VStr [120]%N)) (Some (VStr [122]%N)) false)) in
  alphabet_annotation 10 IA5String [{| cset := El (Alpha inner); cext := false |}]
  = Ok (Some [SSingle 65%N; SSingle 66%N; SRange (Some 120%N) (Some 122%N)])
  /\ known_multiplier IA5String = true /\ union_only inner = true /\ simple_alpha inner = true.
Proof. lazy. repeat split; reflexivity. Qed.

(* inclusion of another constrained string type as the whole constraint (`B ::= IA5String (A)`, `(INCLUDES A)`): the
   annotation is the one of the included type's own constraints, hence exact under the same conditions *)
Theorem C15_inclusion_is_included :
  forall fuel t t' c cs', known_multiplier t = true ->
    alphabet_annotation_a fuel t [AIncl t' (c :: cs')] = alphabet_annotation fuel t' (c :: cs').
Proof.
  intros fuel t t' c cs' Hk. unfold alphabet_annotation_a, alphabet_annotation. cbn [collect_a try_new_a]. rewrite Hk. cbn [negb].
  destruct (collect fuel t' (c :: cs')) as [l| | |]; cbn [bind]; try reflexivity. now rewrite app_nil_r.
Qed.

Theorem C15_inclusion_exact :
  forall fuel t t' inner ann,
    known_multiplier t = true -> known_multiplier t' = true -> union_only inner = true -> simple_alpha inner = true ->
    alphabet_annotation_a fuel t [AIncl t' [{| cset := El (Alpha inner); cext := false |}]] = Ok ann ->
    forall c, denote (match ann with Some l => l | None => [] end) c = semb_alpha_rn inner c.
Proof.
  intros fuel t t' inner ann Hk Hk' Hu Hs Ha. rewrite (C15_inclusion_is_included fuel t t' _ [] Hk) in Ha.
  exact (C15_union_exact fuel t' inner ann Hk' Hu Hs Ha).
Qed.

(* known finding C15-inclusion-in-set-operation: as an operand of `|` the included type is not folded in; the result is
   no annotation at all (a superset, never the exact set) *)
Theorem C15_inclusion_in_union_not_exact :
  let s := El (Single (VStr [120%N]) false) in
  try_new 6 IA5String {| cset := SetOp Contained Union (El (Alpha s)); cext := false |} = Ok None /\
  try_new 6 IA5String {| cset := SetOp (Alpha s) Union (El Contained); cext := false |} = Ok None.
Proof. lazy. split; reflexivity. Qed.

(* non-vacuity: B ::= IA5String (A) with A ::= NumericString (FROM ("0".."3" | "7")) *)
Example C15_inclusion_example :
  let inner := SetOp (Range (Some (VStr [48]%N)) (Some (VStr [51]%N)) false) Union (El (Single (VStr [55]%N) false)) in
  alphabet_annotation_a 10 IA5String [AIncl NumericString [{| cset := El (Alpha inner); cext := false |}]]
  = Ok (Some [SRange (Some 48%N) (Some 51%N); SSingle 55%N]).
Proof. lazy. reflexivity. Qed.

(* the character tables the annotations are computed from (re-translated from the source on every run) are the alphabets
   X.680 defines for NumericString, PrintableString, VisibleString and IA5String: a character of any code point is in the
   table exactly when it is in the alphabet *)
Theorem C15_tables_are_x680 :
  forall t b c, In t [NumericString; PrintableString; VisibleString; IA5String] ->
    x680_alphabet t c = Some b -> existsb (N.eqb c) (character_set t) = b.
Proof. exact Proofs.C15.table_is_x680. Qed.

(* an extensible permitted-alphabet constraint -- `(FROM ("a".."c"), ...)` -- is not PER-visible (X.691 10.3.10): alone it
   yields no annotation, next to other constraints it contributes nothing (a closed alphabet was emitted until the fix of
   C15-extensible-from-emitted) *)
Theorem C15_extensible_alone_no_annotation :
  forall fuel t s, alphabet_annotation fuel t [{| cset := s; cext := true |}] = Ok None.
Proof. intros fuel t s. unfold alphabet_annotation. cbn [collect]. rewrite Proofs.C15.try_new_extensible. reflexivity. Qed.

Theorem C15_extensible_ignored :
  forall fuel t s cs, collect fuel t ({| cset := s; cext := true |} :: cs) = collect fuel t cs.
Proof. intros fuel t s cs. cbn [collect]. rewrite Proofs.C15.try_new_extensible. cbn [bind]. destruct (collect fuel t cs); reflexivity. Qed.

(* the marker written inside the parentheses of FROM -- `FROM ("a".."c" | "x", ...)` -- makes the permitted alphabet extensible as
   well: no closed alphabet (until the fix of this defect the marked last operand was skipped and the rest emitted as closed) *)
Theorem C15_from_ending_with_marker_no_annotation :
  forall fuel t inner,
    ends_with_marker inner = true ->
    alphabet_annotation fuel t [{| cset := El (Alpha inner); cext := false |}] = Ok None.
Proof.
  intros fuel t inner H. unfold alphabet_annotation. cbn [collect]. unfold try_new.
  destruct (negb (known_multiplier t)); [reflexivity|]. cbn [cext cset from_elem]. rewrite H. reflexivity.
Qed.
