(* C05 -- Extension markers, additions and addition groups are preserved.
   Model: Model/Ext.v.  Component lists without COMPONENTS OF (its interplay with the marker index
   is part of C09).  Identifier hypotheses are the X.680 lexical rules (Spec/Idents.v): they make a
   written component distinguishable from the synthetic `ext_group_...` member. *)
From Coq Require Import NArith List Bool.
Require Import RasnV.Model.Base RasnV.Model.Ext RasnV.Spec.Idents.
Require RasnV.Proofs.C05.
Import ListNotations.

(* members: the written root components, then one member per addition / group, in source order *)
Theorem C05_members_in_order :
  forall root marker adds,
    map iname (members (build_seq root marker adds))
    = map mname root ++ map (fun a => iname (of_addition a)) adds.
Proof. intros. unfold build_seq. cbn [members]. now rewrite map_app, !map_map. Qed.

(* the components after the marker, and only those, are marked as extension additions *)
Theorem C05_additions_exactly_after_marker :
  forall root adds k f,
    Forall (fun m => asn1_ident (mname m) = true) root ->
    nth_error (render_seq (build_seq root true adds)) k = Some f ->
    (fann f <> NoAnn <-> length root <= k).
Proof. intros root adds k f _. apply Proofs.C05.seq_marked_iff. Qed.

Theorem C05_no_marker_no_additions :
  forall root adds k f,
    nth_error (render_seq (build_seq root false adds)) k = Some f -> fann f = NoAnn.
Proof.
  intros root adds k f Hk. rewrite Proofs.C05.render_seq_build in Hk.
  apply Proofs.Indexed.nth_root_adds in Hk as [(_ & x & _ & ->)|(_ & x & _ & ->)]; reflexivity.
Qed.

(* a root component keeps its name and optionality and carries no extension annotation *)
Theorem C05_root_component :
  forall root marker adds k m,
    nth_error root k = Some m -> asn1_ident (mname m) = true ->
    nth_error (render_seq (build_seq root marker adds)) k
    = Some {| fname := mname m; foption := match mopt m with Optional => true | _ => false end;
              fann := NoAnn; finner := None |}.
Proof.
  intros root marker adds k m Hk Hm. rewrite Proofs.C05.render_seq_build.
  erewrite Proofs.Indexed.nth_root by exact Hk. now rewrite Proofs.C05.field_of_member.
Qed.

(* a plain addition is an extension addition *)
Theorem C05_plain_addition :
  forall root adds j m,
    nth_error adds j = Some (AMember m) -> asn1_ident (mname m) = true ->
    nth_error (render_seq (build_seq root true adds)) (length root + j)
    = Some {| fname := mname m; foption := match mopt m with Optional => true | _ => false end;
              fann := ExtAddition; finner := None |}.
Proof.
  intros root adds j m Hj Hm. rewrite Proofs.C05.render_seq_build.
  erewrite Proofs.Indexed.nth_adds by exact Hj. cbn [of_addition]. now rewrite Proofs.C05.field_of_member.
Qed.

(* each [[ ]] group is one optional extension-addition-group member holding exactly the grouped
   components, in order *)
Theorem C05_group_member :
  forall root adds j v f r,
    nth_error adds j = Some (AGroup v f r) -> asn1_ident (mname f) = true ->
    nth_error (render_seq (build_seq root true adds)) (length root + j)
    = Some {| fname := group_prefix ++ mname f; foption := true; fann := ExtGroup;
              finner := Some (inner_fields (f :: r)) |}.
Proof.
  intros root adds j v f r Hj _. rewrite Proofs.C05.render_seq_build.
  now erewrite Proofs.Indexed.nth_adds by exact Hj.
Qed.

(* CHOICE: alternatives in order (version brackets flattened); exactly those after the marker are additions *)
Theorem C05_choice_alternatives_in_order :
  forall root marker adds,
    map fst (render_choice (build_choice root marker adds)) = map mname (root ++ flat_map choice_alts adds).
Proof. intros. now rewrite Proofs.C05.render_choice_build, !map_app, !map_map. Qed.

Theorem C05_choice_additions_exactly_after_marker :
  forall root adds k nm a,
    Forall (fun m => asn1_ident (mname m) = true) (root ++ flat_map choice_alts adds) ->
    nth_error (render_choice (build_choice root true adds)) k = Some (nm, a) ->
    (a = ExtAddition <-> length root <= k) /\ (a = NoAnn <-> k < length root).
Proof. exact Proofs.C05.choice_marked_iff. Qed.

(* generated as extensible exactly when marked or EXTENSIBILITY IMPLIED *)
Theorem C05_extensible_iff :
  forall marker implied, non_exhaustive marker implied = true <-> marker = true \/ implied = true.
Proof. intros. apply orb_true_iff. Qed.

(* non-vacuity: { a, b OPTIONAL, ..., c, [[ 2: d, e OPTIONAL ]], g } *)
Example C05_example :
  let mk n o := {| mname := [n]; mopt := o |} in
  map (fun f => (fname f, foption f, fann f))
      (render_seq (build_seq [mk 97%N Required; mk 98%N Optional] true
                             [AMember (mk 99%N Required); AGroup (Some 2%N) (mk 100%N Required) [mk 101%N Optional]; AMember (mk 103%N Required)]))
  = [([97%N], false, NoAnn); ([98%N], true, NoAnn); ([99%N], false, ExtAddition);
     (group_prefix ++ [100%N], true, ExtGroup); ([103%N], false, ExtAddition)].
Proof. vm_compute. reflexivity. Qed.
