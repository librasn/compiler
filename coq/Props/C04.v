(* C04 -- Emitted value and size bounds equal the PER-visible effective constraint.
   Model: Model/PerVisible.v (a transcription of fold_constraint_set and the PerVisibleRangeConstraints conversions, tied to
   the code by the correspondence H5).
   Domain of the theorems: element sets over integer single values, integer ranges (MIN/MAX
   allowed) and non-PER-visible elements, of any length and with any operators, alone or inside
   SIZE(...), in any number of serial constraints.  [rho] is what the non-PER-visible elements
   permit (arbitrary). *)
From Coq Require Import ZArith List Bool.
Require Import RasnV.Model.Base RasnV.Model.PerVisible RasnV.Spec.Subtype.
Require RasnV.Proofs.C04.
Import ListNotations.
Local Open Scope Z_scope.

(* the folded element never excludes a value of the set that is folded *)
Theorem C04_fold_never_excludes :
  forall rho fuel s r z,
    pure_eos s = true -> fold_eos fuel s None true = Ok r -> sem_eos rho s z -> in_result r z.
Proof. intros rho fuel s r z Hp Hf. apply (Proofs.C04.fold_eos_spec fuel s r Hp Hf). Qed.

(* it is exactly the X.691 10.3.21 effective constraint: unions hull, intersections intersect the
   visible parts, EXCEPT ignored -- for every set whose intersections are non-empty *)
Theorem C04_fold_exact :
  forall fuel s r,
    pure_eos s = true -> nonempty_inters s = true -> fold_eos fuel s None true = Ok r ->
    to_piv r = pv_eos s.
Proof. intros fuel s r Hp Hne Hf. apply (Proofs.C04.fold_eos_spec fuel s r Hp Hf), Hne. Qed.

(* the fuel of the model is not what makes these hold: size-many steps always suffice *)
Theorem C04_fold_terminates :
  forall operant fuel base o,
    pure_elem base = true -> pure_eos operant = true -> (eos_size operant < fuel)%nat ->
    fold fuel base o operant None true <> OutOfFuel.
Proof.
  intros operant fuel base o Hb Ho Hlt E. pose proof (Proofs.C04.fold_pure operant fuel base o Hb Ho) as H.
  rewrite E in H. apply (Nat.lt_irrefl fuel). exact (Nat.le_lt_trans _ _ _ H Hlt).
Qed.

(* one constraint, value or SIZE(...): the emitted bounds contain every permitted value / length *)
Theorem C04_constraint_never_excludes :
  forall rho fuel c rg z,
    Proofs.C04.constraint_pure c = true -> range_of_constraint fuel c = Ok rg ->
    Proofs.C04.constraint_sem rho c z -> in_range rg z.
Proof. exact Proofs.C04.range_of_constraint_never_excludes. Qed.

(* serial constraints intersect, and still never exclude *)
Theorem C04_serial_never_excludes :
  forall rho fuel signed cs rg z,
    Forall (fun c => Proofs.C04.constraint_pure c = true /\ Proofs.C04.constraint_sem rho c z) cs ->
    (signed = false -> 0 <= z) ->
    per_visible_range_constraints fuel signed cs = Ok rg -> in_range rg z.
Proof.
  intros rho fuel signed cs rg z Hall Hz. apply (Proofs.C04.serial_never_excludes rho fuel cs _ rg z Hall).
  destruct signed; split; try exact I. exact (Hz eq_refl).
Qed.

(* flagged extensible exactly when the constraint carries a marker (and bounds anything at all) *)
Theorem C04_extensible_iff_marker :
  forall fuel c rg,
    Proofs.C04.constraint_pure c = true -> Proofs.C04.constraint_unmarked_elems c = true ->
    range_of_constraint fuel c = Ok rg -> rext rg = cext c && Proofs.C04.bounded rg.
Proof. exact Proofs.C04.constraint_extensible_iff. Qed.

(* operator precedence.  The IR can only nest to the right, so `a ^ b | c` is folded as
   `a ^ (b | c)`: the X.680 reading is refuted by a witness (known finding C04-precedence),
   and holds for operator sequences of non-decreasing precedence, where both readings coincide. *)
Theorem C04_precedence_refuted :
  exists e1 e2 e3 z r,
    sem_prec3 (fun _ => True) e1 Inter e2 Union e3 z
    /\ fold 10 e1 Inter (SetOp e2 Union (El e3)) None true = Ok r /\ ~ in_result r z.
Proof.
  exists (Range (Some (VInt 1)) (Some (VInt 10)) false), (Range (Some (VInt 5)) (Some (VInt 20)) false), (Single (VInt 100) false), 100.
  eexists. split; [right; reflexivity|]. split; [lazy; reflexivity|]. cbn. unfold ge_opt, le_opt. cbn. intros [_ H]. exact (H eq_refl).
Qed.

Theorem C04_except_precedence_refuted :
  exists e1 e2 e3 z r,
    sem_prec3 (fun _ => True) e1 Except e2 Union e3 z
    /\ fold 10 e1 Except (SetOp e2 Union (El e3)) None true = Ok r /\ ~ in_result r z.
Proof.
  exists (Range (Some (VInt 1)) (Some (VInt 10)) false), (Single (VInt 5) false), (Single (VInt 100) false), 100.
  eexists. split; [right; reflexivity|]. split; [lazy; reflexivity|]. cbn. unfold ge_opt, le_opt. cbn. intros [_ H]. exact (H eq_refl).
Qed.

Theorem C04_monotone_is_x680 :
  forall rho e1 o1 e2 o2 e3 z,
    monotone3 o1 o2 = true ->
    (sem_prec3 rho e1 o1 e2 o2 e3 z <-> sem_eos rho (SetOp e1 o1 (SetOp e2 o2 (El e3))) z).
Proof. intros rho e1 [] e2 [] e3 z H; try discriminate H; apply iff_refl. Qed.

Theorem C04_monotone_pv_is_x680 :
  forall e1 o1 e2 o2 e3,
    monotone3 o1 o2 = true ->
    pv_prec3 e1 o1 e2 o2 e3 = pv_eos (SetOp e1 o1 (SetOp e2 o2 (El e3))).
Proof. intros e1 [] e2 [] e3 H; try discriminate H; reflexivity. Qed.

(* non-vacuity: INTEGER (3 | MIN..1 ^ -5..7)(0..MAX, ...) *)
Example C04_example :
  let c1 := {| cset := SetOp (Single (VInt 3) false) Union
                        (SetOp (Range None (Some (VInt 1)) false) Inter (El (Range (Some (VInt (-5))) (Some (VInt 7)) false)));
               cext := false |} in
  let c2 := {| cset := El (Range (Some (VInt 0)) None false); cext := true |} in
  per_visible_range_constraints 20 true [c1; c2]
  = Ok {| rmin := Some 0; rmax := Some 3; rext := true; rsize := false |}
  /\ Proofs.C04.constraint_pure c1 = true /\ nonempty_inters (cset c1) = true
  /\ Proofs.C04.constraint_sem (fun _ => True) c1 1.
Proof.
  cbv zeta. split; [lazy; reflexivity|]. split; [reflexivity|]. split; [lazy; reflexivity|].
  unfold Proofs.C04.constraint_sem. cbn. unfold ge_opt, le_opt. cbn. right. repeat split; discriminate.
Qed.

(* the marker written after the last element of a set (where the lexer keeps it) is never lost: whatever the fold keeps or drops --
   non-PER-visible parts, contained subtypes, the ignored part of EXCEPT -- a bounded result is flagged extensible (fix ba5357f) *)
Theorem C04_trailing_marker_never_lost :
  forall fuel b o r cx rg,
    range_of_constraint fuel {| cset := SetOp b o r; cext := cx |} = Ok rg ->
    trailing_marker r = true -> Proofs.C04.bounded rg = true -> rext rg = true.
Proof.
  intros fuel b o r cx rg H Ht Hb. destruct (Proofs.C04.range_of_constraint_core _ _ _ H) as (f & v & _ & E1 & E2 & ->).
  unfold Proofs.C04.bounded in *. rewrite E1, E2 in Hb. cbn [Proofs.C04.gov cset]. rewrite Ht, Hb. apply orb_true_r.
Qed.

(* non-vacuity: (0..5 ^ <contained subtype> EXCEPT 7..9, ...) -- the fold drops the whole operant, the marker stays *)
Example C04_trailing_marker_example :
  let r := SetOp Contained Except (El (Range (Some (VInt 7)) (Some (VInt 9)) true)) in
  range_of_constraint 12 {| cset := SetOp (Range (Some (VInt 0)) (Some (VInt 5)) false) Inter r; cext := false |}
  = Ok {| rmin := Some 0; rmax := Some 5; rext := true; rsize := false |} /\ trailing_marker r = true.
Proof. lazy. split; reflexivity. Qed.
