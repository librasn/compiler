(* C16 -- Generated identifiers are legal and keep the ASN.1 name recoverable.
   Roles: module, component -> snake; type -> title; alternative, enumeral -> enum_ident; value -> const_case.
   The keyword table rust_keywords is Gen.T02 (re-translated from the source on every run). *)
From Coq Require Import NArith List Bool.
Require Import RasnV.Model.Base RasnV.Gen.T02 RasnV.Model.Names RasnV.Spec.Idents.
Require RasnV.Proofs.C16.
Import ListNotations.
Local Open Scope N_scope.

(* legality, for ASN.1 identifiers of any length *)
Theorem C16_legal_snake : forall s, asn1_ident s = true -> rust_ident_ok (snake s) = true.
Proof. intros s H. apply Proofs.C16.snake_legal, Proofs.C16.asn1_word, H. Qed.
Theorem C16_legal_const : forall s, asn1_ident s = true -> rust_ident_ok (const_case s) = true.
Proof. intros s H. apply Proofs.C16.const_legal, Proofs.C16.asn1_word, H. Qed.
Theorem C16_legal_title : forall s, asn1_ident s = true -> rust_ident_ok (title s) = true.
Proof. intros s H. apply Proofs.C16.title_legal, Proofs.C16.asn1_word, H. Qed.
Theorem C16_legal_enum : forall s, asn1_ident s = true -> rust_ident_ok (enum_ident s) = true.
Proof. intros s H. apply Proofs.C16.enum_legal, Proofs.C16.asn1_word, H. Qed.

(* the escape table of the generator covers every strict and reserved keyword *)
Theorem C16_escape_complete : forallb (fun k => str_in k rust_keywords) spec_keywords = true.
Proof. exact Proofs.C16.spec_subset_table. Qed.

(* the ASN.1 name stays recoverable: same alphanumerics in the same order, up to case, separators
   and the r_/R_ keyword escape *)
Theorem C16_skeleton_snake : forall s, skeleton (snake s) = skeleton s \/ skeleton (snake s) = 114 :: skeleton s.
Proof.
  intro s. unfold snake.
  rewrite Proofs.C16.skeleton_escape, Proofs.C16.skeleton_snake_body, Proofs.C16.skeleton_replace_hyphen.
  destruct (str_in _ _); [right | left]; reflexivity.
Qed.
Theorem C16_skeleton_const : forall s, skeleton (const_case s) = skeleton s \/ skeleton (const_case s) = 114 :: skeleton s.
Proof. intro s. unfold const_case. rewrite Proofs.C16.skeleton_map_upper. apply C16_skeleton_snake. Qed.
Theorem C16_skeleton_title : forall s, skeleton (title s) = skeleton s \/ skeleton (title s) = 114 :: skeleton s.
Proof.
  intro s. unfold title.
  rewrite Proofs.C16.skeleton_escape, Proofs.C16.skeleton_title_fold, Proofs.C16.skeleton_replace_hyphen.
  destruct (str_in _ _); [right | left]; reflexivity.
Qed.
Theorem C16_skeleton_enum : forall s, skeleton (enum_ident s) = skeleton s \/ skeleton (enum_ident s) = 114 :: skeleton s.
Proof.
  intro s. unfold enum_ident. rewrite Proofs.C16.skeleton_escape, Proofs.C16.skeleton_replace_hyphen.
  destruct (str_in _ _); [right | left]; reflexivity.
Qed.

(* an identifier annotation carries the original spelling exactly when the names differ *)
Theorem C16_annotation :
  forall m o, (identifier_attr m o = None <-> m = o) /\ (m <> o -> identifier_attr m o = Some o).
Proof.
  intros m o. unfold identifier_attr. destruct (str_eqb_spec m o) as [E|Hne].
  - split; [split; trivial | contradiction].
  - split; [split; [discriminate | contradiction] | reflexivity].
Qed.

(* non-vacuity: `fn` and `self` are ASN.1 identifiers whose snake and title forms (`fn`, `Self`) are keywords and get
   escaped; the manglings of `a-bC` *)
Example C16_example :
  asn1_ident [102;110] = true /\ snake [102;110] = [114;95;102;110]
  /\ asn1_ident [115;101;108;102] = true /\ title [115;101;108;102] = [82;95;83;101;108;102]
  /\ snake [97;45;98;67] = [97;95;98;95;99] /\ enum_ident [97;45;98;67] = [97;95;98;67].
Proof. vm_compute. repeat split; reflexivity. Qed.
