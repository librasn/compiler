(* C17 -- Syntax errors are reported at the malformed definition, consistently.
   Model: Model/InputPos.v (input.rs bookkeeping; the numbers Display / contextualize print).
   The location clause in full generality is about the whole combinator grammar and nom's error
   selection and is decided by the search (single-token corruptions); what is proved is that the
   reported numbers are meaningful for EVERY sequence of slicing / context operations on EVERY source. *)
From Coq Require Import NArith Arith List Bool.
Require Import RasnV.Model.Base RasnV.Model.InputPos.
Require RasnV.Proofs.C17.
Import ListNotations.

(* the invariant holds initially and is preserved by every operation *)
Theorem C17_invariant :
  forall src ops i, run (init src) ops = Some i -> Proofs.C17.Inv src i.
Proof. exact Proofs.C17.inv_reachable. Qed.

(* the byte offset lies within the input; the line number is one plus the number of line breaks
   before that offset; the context starts at or before the error and its line is consistent too *)
Theorem C17_report_meaningful :
  forall src ops i,
    run (init src) ops = Some i ->
    let r := report_of i in
    r_offset r <= length src
    /\ r_line r = 1 + count_nl (firstn (r_offset r) src)
    /\ r_ctx_offset r <= r_offset r
    /\ r_ctx_line r = 1 + count_nl (firstn (r_ctx_offset r) src).
Proof.
  intros src ops i (Hlen & _ & Hline & Hctx & Hcl)%Proofs.C17.inv_reachable. cbn.
  repeat split; try assumption. exact (Nat.le_trans _ _ _ (Nat.le_add_r _ _) Hlen).
Qed.

(* Display, contextualize and the structured report agree on the line *)
Theorem C17_lines_agree :
  forall src ops i n,
    run (init src) ops = Some i ->
    let r := report_of i in
    display_line r = r_line r /\ (forall m, marked_line r n = Some m -> m = r_line r) /\ r_ctx_line r <= r_line r.
Proof.
  intros src ops i n H. split; [reflexivity|]. split.
  - apply Proofs.C17.marked_line_is.
  - apply (Proofs.C17.inv_ctx_line src), (Proofs.C17.inv_reachable src ops), H.
Qed.

(* non-vacuity: "ab\ncd\n\nxyz" sliced three times with a context reset *)
Example C17_example :
  option_map report_of (run (init [97;98;10;99;100;10;10;120;121;122]%N) [OSlice 1 10; OSlice 3 9; OReset; OSlice 2 5])
  = Some {| r_line := 3; r_offset := 6; r_column := 2; r_ctx_line := 2; r_ctx_offset := 4 |}.
Proof. vm_compute. reflexivity. Qed.
