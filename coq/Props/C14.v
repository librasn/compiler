(* C14 -- ENUMERATED items get the numbers X.680 §20 assigns. *)
From Coq Require Import ZArith List Bool Sorted.
Require Import RasnV.Model.Base RasnV.Model.Enum RasnV.Spec.EnumSpec.
Require RasnV.Proofs.C14.
Import ListNotations.
Local Open Scope Z_scope.

(* the original identifiers are preserved, in order; nothing is added or dropped *)
Theorem C14_names_in_order :
  forall root marker adds,
    map fst (members (build_enumerated root marker adds)) = map fst (root ++ adds).
Proof. intros. apply Proofs.C14.agrees_names, Proofs.C14.build_agrees. Qed.

(* explicit numbers are kept (any integer, negative ones included) *)
Theorem C14_explicit_kept :
  forall root marker adds,
    kept (root ++ adds) (map snd (members (build_enumerated root marker adds))) = true.
Proof. intros. apply Proofs.C14.agrees_kept, Proofs.C14.build_agrees. Qed.

(* identifier-only root items get successive integers from 0 that skip the explicitly used
   numbers: non-negative, unused, strictly increasing in source order, and gap-free *)
Theorem C14_root_skips_used :
  forall root,
    let vs := Proofs.C14.implicit_values root (map snd (number_root root)) in
    let used := explicit_numbers root in
    Forall (fun v => 0 <= v /\ ~ In v used) vs
    /\ StronglySorted Z.lt vs
    /\ (forall m v, In v vs -> 0 <= m < v -> In m used \/ In m vs).
Proof. intro root. apply Proofs.C14.root_implicit. Qed.

(* an identifier-only addition never reuses a number: it is outside the root and above every
   earlier addition *)
Theorem C14_additions_fresh :
  forall root adds i n,
    nth_error adds i = Some (n, None) ->
    exists v, nth_error (map snd (number_adds (number_root root) adds)) i = Some v
              /\ ~ In v (map snd (number_root root))
              /\ (forall p, In p (firstn i (map snd (number_adds (number_root root) adds))) -> p < v).
Proof.
  intros root adds i n H. destruct (Proofs.C14.add_nth (map snd (number_root root)) adds 0 i n None H) as [v [Hv [_ P]]].
  exists v. split; [exact Hv | exact P].
Qed.

(* all numbers of one type are distinct, for every input whose explicit numbers are legal
   (distinct in the root; an explicit addition differs from everything before it, X.680 20.5) *)
Theorem C14_distinct :
  forall root adds,
    NoDup (explicit_numbers root) ->
    (forall i n z, nth_error adds i = Some (n, Some z) ->
       ~ In z (map snd (number_root root) ++ firstn i (map snd (number_adds (number_root root) adds)))) ->
    NoDup (Proofs.C14.all_numbers root adds).
Proof. exact Proofs.C14.distinct. Qed.

Theorem C14_first_addition_index :
  forall root marker adds,
    extensible (build_enumerated root marker adds) = if marker then Some (length root) else None.
Proof.
  intros. unfold build_enumerated, number_root. cbn [extensible].
  now rewrite (Proofs.C14.agrees_length _ _ (Proofs.C14.root_agrees _ _ root)).
Qed.

(* non-vacuity: { a(1), b, c(0), ..., d, e(7), f } *)
Example C14_example :
  let root := [([97%N], Some 1); ([98%N], None); ([99%N], Some 0)] in
  let adds := [([100%N], None); ([101%N], Some 7); ([102%N], None)] in
  map snd (members (build_enumerated root true adds)) = [1; 2; 0; 3; 7; 8]
  /\ NoDup (explicit_numbers root).
Proof.
  split; [vm_compute; reflexivity|].
  cbn. repeat constructor; cbn; intuition discriminate.
Qed.
