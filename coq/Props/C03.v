(* C03 -- Tags and tagging mode follow X.680 under the module's tagging environment.
   Model: Model/Tagging.v; reference: Spec/TagSpec.v (X.680 31.2.7, 25.3, 29.2). *)
From Coq Require Import NArith List Bool.
Require Import RasnV.Model.Base RasnV.Model.Tagging RasnV.Spec.TagSpec.
Require RasnV.Proofs.C03.
Import ListNotations.

(* class and number of every written tag reach the generated attribute, whatever the configuration *)
Theorem C03_class_and_number_kept :
  forall clause kw cls n pos kind,
    known_element pos = false -> exists e, render_tag clause kw cls n pos kind = Some (e, cls, n).
Proof.
  intros clause kw cls n pos kind H. rewrite Proofs.C03.render_tag_shape, H. now eexists.
Qed.

(* known finding: the tag on the element of SEQUENCE OF / SET OF never reaches the bindings (pinned by
   the snapshot test structured_types::tagged_prefix_type) *)
Theorem C03_element_tag_refuted :
  exists clause kw cls n kind, render_tag clause kw cls n ElementOf kind = None.
Proof. exists (Some Explicit), None, Context, 5%N, Primitive. reflexivity. Qed.

(* the tag is applied explicitly exactly when X.680 31.2.7 says so, over the property's whole
   4 x 3 x 4 x 5 x 5 configuration space, wherever the attribute is observable.  Left out are the
   known class "no TAGS clause" and the combination X.680 forbids (IMPLICIT on a CHOICE / open
   type).  Class and number are passed through untouched (Proofs.C03.render_tag_shape), so the
   4 x 3 x 5 x 5 configurations that remain are closed by computation and lifted
   (Proofs.C03.mode_correct, which holds for every class and every number). *)
Theorem C03_mode_correct :
  forall clause kw cls pos kind,
    In kw all_kws -> known_no_clause clause kw = false -> known_element pos = false -> legal_tag kw kind = true ->
    attr_observable pos kind = true ->
    exists c n, render_tag clause kw cls 7%N pos kind = Some (spec_explicit clause kw kind, c, n).
Proof. intros. eexists. eexists. now apply Proofs.C03.mode_correct. Qed.

Theorem C03_number_irrelevant :
  forall clause kw cls n m pos kind,
    option_map (fun x => fst (fst x)) (render_tag clause kw cls n pos kind)
    = option_map (fun x => fst (fst x)) (render_tag clause kw cls m pos kind).
Proof.
  intros. rewrite !Proofs.C03.render_tag_shape. now destruct (known_element pos).
Qed.

(* known finding: a module without TAGS clause is treated as IMPLICIT TAGS (pinned by the unit test
   lexer::module_header::tests::parses_iri_value) *)
Theorem C03_no_clause_refuted :
  exists kw cls pos kind e,
    render_tag None kw cls 0%N pos kind = Some (e, cls, 0%N) /\ e <> spec_explicit None kw kind
    /\ attr_observable pos kind = true.
Proof. exists None, Context, Component, Primitive, false. repeat split; discriminate. Qed.

(* at every nesting depth: the module default reaches every tag of a type *)
Theorem C03_every_depth :
  forall env t x,
    In x (tags_of (apply_rec env t)) ->
    exists w, In w (tags_of t) /\ tcls x = tcls w /\ tnum x = tnum w
              /\ tenvironment x = env_add env (tenvironment w).
Proof.
  intros env t x H. rewrite (proj1 (Proofs.C03.apply_rec_tags env)) in H.
  apply in_map_iff in H as [w [<- Hw]]. exists w. auto.
Qed.

(* automatic tagging: exactly when the module says AUTOMATIC TAGS and no component is tagged *)
Theorem C03_automatic_iff :
  forall clause tagged,
    automatic_tags clause tagged = true <-> (clause = Some Automatic /\ forall b, In b tagged -> b = false).
Proof. exact Proofs.C03.automatic_iff. Qed.

Theorem C03_automatic_matches_spec :
  forall clause tagged, automatic_tags clause tagged = spec_automatic clause tagged.
Proof. exact Proofs.C03.automatic_matches_spec. Qed.

Example C03_example :
  render_tag (Some Explicit) None Application 3%N NestedComponent Primitive = Some (true, Application, 3%N)
  /\ render_tag (Some Automatic) None Context 1%N TypeAssignment InlineChoice = Some (true, Context, 1%N)
  /\ automatic_tags (Some Automatic) [false; false] = true /\ automatic_tags (Some Automatic) [false; true] = false.
Proof. vm_compute. repeat split; reflexivity. Qed.
