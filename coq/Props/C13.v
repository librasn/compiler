(* C13 -- Whitespace, line endings and comments between tokens do not matter.
   Model: Model/Scan.v (the hand-written trivia scanners); reference: Spec/Trivia.v (X.680 12.6).
   The theorem is about the skipper every token parser is wrapped in; that every token boundary of
   the grammar is wrapped in it is measured by the search (each boundary, each trivia form). *)
From Coq Require Import NArith Arith List Bool.
Require Import RasnV.Model.Base RasnV.Model.Scan RasnV.Spec.Trivia.
Require RasnV.Proofs.C13.
Import ListNotations.

(* any trivia -- white-space, `-- ... --`, `-- ... EOL`, `/* ... */` also nested, with any text inside
   (quotes, braces, keywords, non-ASCII bytes), in any number and order -- in front of a token is
   removed exactly, for every length *)
Theorem C13_skipper_removes_trivia :
  forall n t r fuel,
    (length t <= n)%nat -> trivia t -> starts_token r = true -> (length (t ++ r) <= fuel)%nat ->
    skipper fuel (t ++ r) = r.
Proof.
  intros n t r fuel _ Ht Hr Hf. apply Proofs.C13.skipper_trivia; [exact Ht | exact Hr |].
  rewrite app_length in Hf. apply (Nat.le_trans _ _ _ (Nat.le_add_r _ _) Hf).
Qed.

(* the scanner of block comments never reads outside the input (totality, shared with C08) *)
Theorem C13_block_scanner_total :
  forall fuel s o1 o2 c1 c2 index counter, tub fuel s o1 o2 c1 c2 index counter <> Panic.
Proof. exact Proofs.C13.tub_no_panic. Qed.

(* non-vacuity: `  -- hi -- /* a /* b */ c */` LF `--x` LF `Foo` *)
Example C13_example :
  skipper 100 [32;32;45;45;32;104;105;32;45;45;32;47;42;32;97;32;47;42;32;98;32;42;47;32;99;32;42;47;10;45;45;120;10;70;111;111]%N
  = [70;111;111]%N.
Proof. vm_compute. reflexivity. Qed.
