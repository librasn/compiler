(* C19 -- Backend options change only what they document.
   Model: Model/Config.v over the regenerated constants of Gen/T19.v (REQUIRED_DERIVES, COPY_DERIVE).
   "Type definitions, tags, constraints and values are identical across configurations" is a statement about the whole
   generator and is decided by the search: the item-level difference between the bindings under any two
   configurations is confined to the documented places. *)
From Coq Require Import NArith Arith List Bool.
Require Import RasnV.Model.Base RasnV.Model.Config.
Require RasnV.Gen.T19 RasnV.Proofs.C01 RasnV.Proofs.C19.
Import ListNotations.

(* type_annotations: for any annotations -- derives listed once, twice or not at all, in any order -- the derive list
   starts with the derives rasn needs, unchanged and in place, contains every derive the user asked for, and contains
   nothing twice *)
Theorem C19_derives :
  forall user,
    NoDup (merge_derives Gen.T19.required_derives user) /\
    (forall x, In x (merge_derives Gen.T19.required_derives user) <-> In x Gen.T19.required_derives \/ In x (concat user)) /\
    exists t, merge_derives Gen.T19.required_derives user = Gen.T19.required_derives ++ t.
Proof.
  (* the required derives are pairwise distinct: checked on the regenerated table *)
  intro user. apply Proofs.C19.merge_derives_spec, Proofs.C01.dup_free_NoDup. reflexivity.
Qed.

(* generate_from_impls: a From impl exactly for the alternatives whose payload type is unique within their CHOICE *)
Theorem C19_from_impls :
  forall alts a, In a (from_impl_alts alts) <-> In a alts /\ count_ty (snd a) (map snd alts) = 1%nat.
Proof. intros alts a. unfold from_impl_alts. now rewrite filter_In, Nat.eqb_eq. Qed.

Example C19_example :
  from_impl_alts [([97]%N, [73]%N); ([98]%N, [66]%N); ([99]%N, [73]%N)] = [([98]%N, [66]%N)].
Proof. vm_compute. reflexivity. Qed.
