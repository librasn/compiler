(* Base definitions shared by all models. No proofs of properties here. *)
From Coq Require Import NArith List Bool.
Import ListNotations.

(* Strings are lists of code points (for ASCII text: bytes). *)
Definition str := list N.

Fixpoint str_eqb (a b : str) : bool :=
  match a, b with
  | [], [] => true
  | x :: a', y :: b' => N.eqb x y && str_eqb a' b'
  | _, _ => false
  end.

Lemma str_eqb_eq a b : str_eqb a b = true <-> a = b.
Proof.
  revert b; induction a as [|x a IH]; destruct b as [|y b]; simpl; split; intro H;
    try reflexivity; try discriminate.
  - apply andb_true_iff in H as [H1 H2]. apply N.eqb_eq in H1. apply IH in H2. congruence.
  - inversion H; subst. apply andb_true_iff; split; [apply N.eqb_refl | apply IH; reflexivity].
Qed.

Lemma str_eqb_spec a b : reflect (a = b) (str_eqb a b).
Proof. apply iff_reflect. symmetry. apply str_eqb_eq. Qed.

Lemma str_eqb_refl a : str_eqb a a = true.
Proof. now apply str_eqb_eq. Qed.

Lemma str_eqb_neq a b : a <> b -> str_eqb a b = false.
Proof. intro H. destruct (str_eqb a b) eqn:E; [apply str_eqb_eq in E; contradiction | reflexivity]. Qed.

Definition str_in (s : str) (l : list str) : bool := existsb (str_eqb s) l.

Lemma existsb_eqb_In {A} (eqb : A -> A -> bool) (eqb_eq : forall a b, eqb a b = true <-> a = b) x l :
  existsb (eqb x) l = true <-> In x l.
Proof.
  rewrite existsb_exists. split.
  - intros [y [Hy He]]. apply eqb_eq in He. now subst.
  - intro H. exists x. split; [exact H | now apply eqb_eq].
Qed.

Lemma str_in_In s l : str_in s l = true <-> In s l.
Proof. exact (existsb_eqb_In str_eqb str_eqb_eq s l). Qed.

(* Rust integer types the generator can pick (IntegerType in intermediate/mod.rs). *)
Inductive int_ty := Int8 | Uint8 | Int16 | Uint16 | Int32 | Uint32 | Int64 | Uint64 | Unbounded.

Definition int_ty_eqb (a b : int_ty) : bool :=
  match a, b with
  | Int8, Int8 | Uint8, Uint8 | Int16, Int16 | Uint16, Uint16 | Int32, Int32
  | Uint32, Uint32 | Int64, Int64 | Uint64, Uint64 | Unbounded, Unbounded => true
  | _, _ => false
  end.

Lemma int_ty_eqb_eq a b : int_ty_eqb a b = true <-> a = b.
Proof. destruct a, b; simpl; split; intro H; try reflexivity; try discriminate. Qed.

(* Indices of the elements of [l] on which [f] is false; used by the generated case files. *)
Fixpoint bad_from {A} (f : A -> bool) (i : N) (l : list A) : list N :=
  match l with
  | [] => []
  | x :: r => if f x then bad_from f (N.succ i) r else i :: bad_from f (N.succ i) r
  end.
Definition bad_indices {A} (f : A -> bool) (l : list A) : list N := bad_from f 0%N l.

Definition opt_eqb {A} (eqb : A -> A -> bool) (a b : option A) : bool :=
  match a, b with
  | None, None => true
  | Some x, Some y => eqb x y
  | _, _ => false
  end.

Fixpoint list_eqb {A} (eqb : A -> A -> bool) (a b : list A) : bool :=
  match a, b with
  | [], [] => true
  | x :: a', y :: b' => eqb x y && list_eqb eqb a' b'
  | _, _ => false
  end.

Lemma flat_map_ext_in {A B} (f g : A -> list B) l : (forall x, In x l -> f x = g x) -> flat_map f l = flat_map g l.
Proof. intro H. rewrite !flat_map_concat_map. f_equal. now apply map_ext_in. Qed.
