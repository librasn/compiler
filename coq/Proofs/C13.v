From Coq Require Import NArith Arith List Bool Lia.
Require Import RasnV.Model.Base RasnV.Model.Scan RasnV.Spec.Trivia.
Import ListNotations.
Local Open Scope N_scope.

(* The trivia skipper of the lexer (Model/Scan.v) against X.680 12.6 (Spec/Trivia.v): what comment does on
   each comment form, and that white-space in front costs the loop nothing; skipper_trivia is then an
   induction on the trivia. *)

Lemma last_is_cons b y z r : last_is b (y :: z :: r) = last_is b (z :: r).
Proof. unfold last_is. cbn [rev]. destruct (rev r) as [|h tl]; reflexivity. Qed.

(* last_is c body = false keeps a two-byte tag from forming across the seam between body and x *)
Lemma line_body_app body x :
  plain_line body = true -> last_is 45 body = false -> line_body (body ++ x) = line_body x.
Proof.
  induction body as [|y b IH]; intros Hp Hl; [reflexivity|].
  cbn [plain_line] in Hp. apply andb_true_iff in Hp as [Hp Hb]. apply andb_true_iff in Hp as [Hy Hs].
  apply negb_true_iff in Hy, Hs.
  cbn [app line_body]. rewrite Hy. cbn [orb].
  destruct b as [|z b'].
  - change (N.eqb y 45 = false) in Hl. cbn [app starts2]. destruct x; rewrite ?Hl; reflexivity.
  - cbn [app starts2] in Hs |- *. rewrite Hs. rewrite last_is_cons in Hl. exact (IH Hb Hl).
Qed.

Lemma block_scan_app d body a b rest :
  plain_block body = true -> last_is 47 body = false -> last_is 42 body = false ->
  block_scan d (body ++ a :: b :: rest) = block_scan d (a :: b :: rest).
Proof.
  induction body as [|y t IH]; intros Hp H1 H2; [reflexivity|].
  cbn [plain_block] in Hp. apply andb_true_iff in Hp as [Hp Ht]. apply andb_true_iff in Hp as [Ho Hc].
  apply negb_true_iff in Ho, Hc.
  destruct t as [|z t'].
  - change (N.eqb y 47 = false) in H1. change (N.eqb y 42 = false) in H2.
    cbn [app block_scan]. rewrite H1, H2. reflexivity.
  - cbn [app block_scan]. cbn [starts2] in Ho, Hc. rewrite Ho, Hc.
    rewrite last_is_cons in H1, H2. exact (IH Ht H1 H2).
Qed.

Lemma comment_dashes x :
  comment (45 :: 45 :: x) = Some (let r := line_body x in if starts2 45 45 r then skipn 2 r else r).
Proof. reflexivity. Qed.

Lemma comment_open x : comment (47 :: 42 :: x) = option_map (skipn 2) (block_scan 0 x).
Proof. unfold comment, block_comment. cbn. destruct (block_scan 0 x); reflexivity. Qed.

Lemma comment_inline body x :
  plain_line body = true -> last_is 45 body = false ->
  comment ((45 :: 45 :: body ++ [45; 45]) ++ x) = Some x.
Proof.
  intros Hp Hl. cbn [app]. rewrite comment_dashes, <- app_assoc, line_body_app by assumption. reflexivity.
Qed.

(* the line break is left: it is white-space *)
Lemma comment_newline body x :
  plain_line body = true -> last_is 45 body = false ->
  comment ((45 :: 45 :: body ++ [10]) ++ x) = Some (10 :: x).
Proof.
  intros Hp Hl. cbn [app]. rewrite comment_dashes, <- app_assoc, line_body_app by assumption.
  destruct x; reflexivity.
Qed.

Lemma comment_block body x :
  plain_block body = true -> last_is 47 body = false -> last_is 42 body = false ->
  comment ((47 :: 42 :: body ++ [42; 47]) ++ x) = Some x.
Proof.
  intros Hp H1 H2. cbn [app]. rewrite comment_open, <- app_assoc. cbn [app].
  rewrite block_scan_app by assumption. reflexivity.
Qed.

Lemma comment_nested a b c x :
  plain_block a = true -> plain_block b = true -> plain_block c = true ->
  last_is 47 a = false -> last_is 42 a = false -> last_is 47 b = false -> last_is 42 b = false ->
  last_is 47 c = false -> last_is 42 c = false ->
  comment ((47 :: 42 :: a ++ [47; 42] ++ b ++ [42; 47] ++ c ++ [42; 47]) ++ x) = Some x.
Proof.
  intros Ha Hb Hc A1 A2 B1 B2 C1 C2. cbn [app]. rewrite comment_open.
  rewrite <- app_assoc. cbn [app]. rewrite (block_scan_app 0 a) by assumption.
  change (block_scan 0 (47 :: 42 :: ?r)) with (block_scan 1 r).
  rewrite <- app_assoc. cbn [app]. rewrite (block_scan_app 1 b) by assumption.
  change (block_scan 1 (42 :: 47 :: ?r)) with (block_scan 0 r).
  rewrite <- app_assoc. cbn [app]. rewrite (block_scan_app 0 c) by assumption. reflexivity.
Qed.

(* the length is for the fuel count of skipper_trivia: a comment costs one unit, and the line break it may leave
   needs one more at hand *)
Lemma comment_of_piece p x :
  piece p ->
  (exists b, p = [b] /\ is_ws b = true)
  \/ (2 < length p)%nat /\ (comment (p ++ x) = Some x \/ comment (p ++ x) = Some (10 :: x)).
Proof.
  intro Hp. destruct Hp; [left; eauto | right ..];
    (split; [cbn [length]; rewrite !app_length; cbn [length]; lia|]).
  - left. apply comment_inline; assumption.
  - right. apply comment_newline; assumption.
  - left. apply comment_block; assumption.
  - left. apply comment_nested; assumption.
Qed.

(* is_ws (hd 0 s) = false: s is empty or starts with no white-space (the byte 0 is none) *)
Lemma starts_token_inv r :
  starts_token r = true ->
  is_ws (hd 0 r) = false /\ starts2 45 45 r = false /\ starts2 47 42 r = false.
Proof.
  destruct r as [|b r']; [auto|]. unfold starts_token. intro H.
  apply andb_true_iff in H as [H H3]. apply andb_true_iff in H as [H1 H2].
  apply negb_true_iff in H1, H2, H3. auto.
Qed.

Lemma skip_ws_stop s : is_ws (hd 0 s) = false -> skip_ws s = s.
Proof. destruct s as [|b s']; [reflexivity|]. cbn [hd skip_ws]. intros ->. reflexivity. Qed.

Lemma comment_token r : starts_token r = true -> comment r = None.
Proof.
  intro H. destruct (starts_token_inv r H) as (Hw & Hl & Hb).
  unfold comment, block_comment, line_comment. rewrite (skip_ws_stop r Hw), Hb, Hl. reflexivity.
Qed.

Lemma skipper_stop fuel s : comment s = None -> is_ws (hd 0 s) = false -> skipper fuel s = s.
Proof.
  intros Hc Hw. destruct fuel as [|f]; [reflexivity|]. cbn [skipper]. rewrite Hc.
  destruct s as [|b s']; [reflexivity|]. cbn [hd] in Hw. rewrite Hw. reflexivity.
Qed.

Lemma skipper_token fuel r : starts_token r = true -> skipper fuel r = r.
Proof. intro H. apply skipper_stop; [apply comment_token, H | apply (starts_token_inv r H)]. Qed.

Lemma skip_ws_hd s : is_ws (hd 0 (skip_ws s)) = false.
Proof.
  induction s as [|b r IH]; [reflexivity|]. cbn [skip_ws].
  destruct (is_ws b) eqn:Eb; [exact IH | exact Eb].
Qed.

Lemma skip_ws_idem s : skip_ws (skip_ws s) = skip_ws s.
Proof. apply skip_ws_stop, skip_ws_hd. Qed.

Lemma comment_skip_ws s : comment (skip_ws s) = comment s.
Proof. unfold comment. rewrite skip_ws_idem. reflexivity. Qed.

(* White-space costs no fuel: comment looks through it, and the white-space branch of the loop is taken
   only where no comment follows, that is, where the loop then stops. *)
Lemma skipper_skip_ws f s : skipper (S f) (skip_ws s) = skipper (S f) s.
Proof.
  destruct (comment s) eqn:Hc.
  - cbn [skipper]. rewrite comment_skip_ws, Hc. reflexivity.
  - assert (Hstop : forall g, skipper g (skip_ws s) = skip_ws s)
      by (intro g; apply skipper_stop; [rewrite comment_skip_ws; exact Hc | apply skip_ws_hd]).
    rewrite Hstop. cbn [skipper]. rewrite Hc. destruct s as [|b s']; [reflexivity|].
    cbn [skip_ws] in *. destruct (is_ws b); [symmetry; apply Hstop | reflexivity].
Qed.

Lemma skipper_ws f b x : is_ws b = true -> skipper (S f) (b :: x) = skipper (S f) x.
Proof.
  intro Hb. rewrite <- (skipper_skip_ws f (b :: x)), <- (skipper_skip_ws f x). cbn [skip_ws]. rewrite Hb. reflexivity.
Qed.

Theorem skipper_trivia t r :
  trivia t -> starts_token r = true -> forall fuel, (length t <= fuel)%nat -> skipper fuel (t ++ r) = r.
Proof.
  intros Ht Hr. induction Ht as [|p t Hp Ht IH]; intros fuel Hf; [apply skipper_token, Hr|].
  rewrite <- app_assoc. rewrite app_length in Hf.
  destruct (comment_of_piece p (t ++ r) Hp) as [(b & -> & Hb) | (Hlen & Hc)].
  - destruct fuel as [|f]; [cbn in Hf; lia|]. cbn [app]. rewrite skipper_ws by exact Hb. apply IH. cbn in Hf. lia.
  - destruct fuel as [|f]; [lia|]. cbn [skipper]. destruct Hc as [-> | ->].
    + apply IH. lia.
    + (* the line break left behind is not a piece of t: skipper_ws disposes of it *)
      destruct f as [|f]; [lia|]. rewrite skipper_ws by reflexivity. apply IH. lia.
Qed.

(* take_until_unbalanced slices only at an index below the length *)
Lemma tub_no_panic : forall fuel s o1 o2 c1 c2 index counter,
  tub fuel s o1 o2 c1 c2 index counter <> Panic.
Proof.
  induction fuel as [|f IH]; intros; cbn [tub]; [discriminate|].
  destruct (Nat.leb (length s) index) eqn:E; [discriminate|].
  apply Nat.leb_gt in E. unfold slice_from.
  assert (Nat.leb index (length s) = true) as -> by (apply Nat.leb_le; lia).
  destruct (starts2 o1 o2 (skipn index s)); [apply IH|].
  destruct (starts2 c1 c2 (skipn index s)); [destruct counter; [discriminate | apply IH] | apply IH].
Qed.
