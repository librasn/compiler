(* C09: what the definitions of Model/Expansion.v compute -- component lists, one call of link_full, the state of the linking
   pass seen through find_state as a map from names, the selection type.  The pass as a whole is in C09Perm.v. *)
From Coq Require Import NArith List Bool.
Require Import RasnV.Model.Base RasnV.Model.Driver RasnV.Model.Expansion.
Require Import RasnV.Proofs.Driver.
Import ListNotations.

Lemma own_names_app a b : own_names (a ++ b) = own_names a ++ own_names b.
Proof. induction a as [|[n|r] a IH]; cbn; [reflexivity | now rewrite IH | exact IH]. Qed.

Lemma refs_of_app a b : refs_of (a ++ b) = refs_of a ++ refs_of b.
Proof. induction a as [|[n|r] a IH]; cbn; [reflexivity | exact IH | now rewrite IH]. Qed.

Lemma own_names_owns l : own_names (map Own l) = l.
Proof. induction l as [|x l IH]; cbn; [reflexivity | now rewrite IH]. Qed.

Lemma own_names_refs l : own_names (map ComponentsOf l) = [].
Proof. induction l as [|x l IH]; cbn; [reflexivity | exact IH]. Qed.

Lemma refs_of_owns l : refs_of (map Own l) = [].
Proof. induction l as [|x l IH]; cbn; [reflexivity | exact IH]. Qed.

Lemma refs_of_refs l : refs_of (map ComponentsOf l) = l.
Proof. induction l as [|x l IH]; cbn; [reflexivity | now rewrite IH]. Qed.

Lemma trailing_parts own refs :
  own_names (map Own own ++ map ComponentsOf refs) = own /\ refs_of (map Own own ++ map ComponentsOf refs) = refs.
Proof.
  rewrite own_names_app, own_names_owns, own_names_refs, refs_of_app, refs_of_owns, refs_of_refs. split; [apply app_nil_r | reflexivity].
Qed.

Lemma norefs_owns items : refs_of items = [] -> items = map Own (own_names items).
Proof. induction items as [|[n|r] l IH]; cbn; intro H; [reflexivity | now rewrite <- IH | discriminate]. Qed.

(* the equation is a hypothesis so that [trailing d] can be passed for it *)
Lemma expand_trailing f ds k items own refs :
  items = map Own own ++ map ComponentsOf refs ->
  expand (S f) ds k items =
  own ++ flat_map (fun r => match find_def r ds with
                            | Some d => if Bool.eqb (t_is_seq d) k then expand f ds k (t_items d) else []
                            | None => []
                            end) refs.
Proof.
  intros ->. cbn [expand]. rewrite flat_map_app. f_equal.
  - induction own as [|x l IH]; cbn; [reflexivity | now rewrite IH].
  - induction refs as [|x l IH]; cbn [map flat_map]; [reflexivity | now rewrite IH].
Qed.

Lemma expand_owns f ds k items : refs_of items = [] -> expand f ds k items = own_names items.
Proof.
  intro H. destruct f; [reflexivity|]. cbn [expand].
  induction items as [|[n|r] l IH]; cbn in *; [reflexivity | now rewrite IH | discriminate].
Qed.

(* mem_str is Base.str_in *)
Lemma mem_str_false x l : ~ In x l -> mem_str x l = false.
Proof. intro H. apply not_true_is_false. intro E. now apply str_in_In in E. Qed.

Lemma link_full_norefs f st v s : l_refs s = [] -> link_full f st v s = s.
Proof. intro H. destruct f; [reflexivity|]. cbn [link_full]. rewrite H. cbn. rewrite app_nil_r. destruct s; cbn in *; now subst. Qed.

Lemma link_full_members f st v d :
  l_members (link_full (S f) st v (init_state d)) =
  own_names (t_items d) ++ flat_map (fun r => if mem_str r v then []
                                              else match find_state r st with
                                                   | Some t => l_members (link_full f st (r :: v) t)
                                                   | None => []
                                                   end) (refs_of (t_items d)).
Proof. reflexivity. Qed.

Lemma find_state_name k st s : find_state k st = Some s -> l_name s = k.
Proof.
  induction st as [|x r IH]; cbn; [discriminate|].
  destruct (str_eqb_spec k (l_name x)) as [->|_]; [now intros [= <-] | exact IH].
Qed.

Lemma find_init ds n d : find_def n ds = Some d -> find_state n (map init_state ds) = Some (init_state d).
Proof.
  induction ds as [|x r IH]; cbn; [discriminate|]. unfold init_state at 1. cbn [l_name].
  destruct (str_eqb n (t_name x)); [now intros [= ->] | exact IH].
Qed.

Lemma find_remove_other n st k : n <> k -> find_state k (remove_state n st) = find_state k st.
Proof.
  intro Hne. induction st as [|x r IH]; cbn; [reflexivity|].
  destruct (str_eqb_spec n (l_name x)) as [<-|_].
  - rewrite (str_eqb_neq k n) by congruence. exact IH.
  - cbn. destruct (str_eqb k (l_name x)); [reflexivity | exact IH].
Qed.

Lemma find_replace_other s st k : l_name s <> k -> find_state k (replace_state s st) = find_state k st.
Proof.
  intro Hne. induction st as [|x r IH]; cbn; [reflexivity|].
  destruct (str_eqb_spec (l_name s) (l_name x)) as [<-|_]; cbn.
  - rewrite (str_eqb_neq k (l_name s)) by congruence. reflexivity.
  - destruct (str_eqb k (l_name x)); [reflexivity | exact IH].
Qed.

Lemma find_replace_same s st k : l_name s = k -> find_state k st <> None -> find_state k (replace_state s st) = Some s.
Proof.
  intros <-. induction st as [|x r IH]; cbn; [congruence|].
  destruct (str_eqb (l_name s) (l_name x)) eqn:E; cbn; [now rewrite str_eqb_refl | now rewrite E].
Qed.

Lemma replace_length s st : length (replace_state s st) = length st.
Proof. induction st as [|x r IH]; cbn; [reflexivity|]. destruct (str_eqb (l_name s) (l_name x)); cbn; [reflexivity | now rewrite IH]. Qed.

Lemma step_same st n s :
  find_state n st = Some s -> find_state n (link_step st n) = Some (link_full (S (length st)) (remove_state n st) [] s).
Proof.
  intro H. unfold link_step. rewrite H. apply find_replace_same; [exact (find_state_name _ _ _ H) | congruence].
Qed.

Lemma step_other st n k : n <> k -> find_state k (link_step st n) = find_state k st.
Proof.
  intro Hne. unfold link_step. destruct (find_state n st) as [s|] eqn:E; [|reflexivity].
  apply find_replace_other. cbn. now rewrite (find_state_name _ _ _ E).
Qed.

Lemma step_length st n : length (link_step st n) = length st.
Proof. unfold link_step. destruct (find_state n st); [apply replace_length | reflexivity]. Qed.

Lemma pass_other order : forall st k, ~ In k order -> find_state k (link_pass order st) = find_state k st.
Proof.
  induction order as [|x l IH]; intros st k Hk; [reflexivity|]. apply not_in_cons in Hk as [Hx Hl].
  transitivity (find_state k (link_step st x)); [now apply (IH (link_step st x)) | apply step_other; congruence].
Qed.

Lemma pass_stable order : forall st r s, find_state r st = Some s -> l_refs s = [] -> find_state r (link_pass order st) = Some s.
Proof.
  induction order as [|x l IH]; intros st r s Hf Hr; [exact Hf|]. apply IH; [|exact Hr].
  destruct (list_eq_dec N.eq_dec x r) as [->|Hne].
  - now rewrite (step_same _ _ _ Hf), link_full_norefs.
  - now rewrite step_other.
Qed.

Lemma find_def_in ds n d : find_def n ds = Some d -> In d ds /\ t_name d = n.
Proof.
  induction ds as [|x r IH]; cbn; [discriminate|]. destruct (str_eqb_spec n (t_name x)) as [->|_].
  - intros [= ->]. split; [now left | reflexivity].
  - intro H. destruct (IH H). split; [now right | assumption].
Qed.

Lemma descending_in ds n d : NoDup (map t_name ds) -> find_def n ds = Some d -> In n (descending ds).
Proof.
  intros Hnd Hf. destruct (find_def_in _ _ _ Hf) as [Hin Hn]. unfold descending. apply -> in_rev.
  apply in_map_iff. exists (t_name d, d). split; [exact Hn|]. now apply from_list_complete.
Qed.

Lemma descending_nodup ds : NoDup (descending ds).
Proof. apply NoDup_rev, sorted_keys_nodup, from_list_sorted. Qed.

Lemma select_spec alts alt t :
  select alts alt = Some t -> exists n, In (n, t) alts /\ n = alt.
Proof.
  unfold select. induction alts as [|[n u] r IH]; [discriminate|].
  destruct (str_eqb_spec n alt) as [E|_].
  - intros [= ->]. exists n. split; [now left | exact E].
  - intro H. destruct (IH H) as [m [Hin Hm]]. exists m. split; [now right | exact Hm].
Qed.

Lemma select_first alts alt t :
  NoDup (map fst alts) -> In (alt, t) alts -> select alts alt = Some t.
Proof.
  unfold select. induction alts as [|[n u] r IH]; cbn [In map]; [intros _ []|].
  intros Hnd [[= -> ->]|Hin]; [now rewrite str_eqb_refl|].
  apply NoDup_cons_iff in Hnd as [Hn Hr]. destruct (str_eqb_spec n alt) as [->|_]; [|now apply IH].
  destruct Hn. exact (in_map fst _ _ Hin).
Qed.

(* the names of the example modules here, in C09Chain.v, C09Perm.v and Props/C09.v: S, T, a, e; Zz, Mm, Aa, id, l, f *)
Definition nS : str := [83]%N.   Definition nT : str := [84]%N.
Definition na : str := [97]%N.   Definition ne : str := [101]%N.

Definition nZ : str := [90;122]%N.  Definition nM : str := [77;109]%N.  Definition nA : str := [65;97]%N.
Definition n_id : str := [105;100]%N.  Definition n_label : str := [108]%N.  Definition n_flag : str := [102]%N.
(* Zz { id }, Mm { label, COMPONENTS OF Zz }, Aa { flag, COMPONENTS OF Mm }: the chain of C09Chain.ds_chain with the names
   sorting the other way, so that every type is linked before the one that includes it and none has to be linked on a copy *)
Theorem components_of_chain_other_names :
  let ds := [mktdef nZ true [Own n_id]; mktdef nM true [Own n_label; ComponentsOf nZ]; mktdef nA true [Own n_flag; ComponentsOf nM]] in
  linked_members ds nA = Some [n_flag; n_label; n_id].
Proof. vm_compute. reflexivity. Qed.
