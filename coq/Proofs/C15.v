From Coq Require Import ZArith NArith List Bool Lia.
Require Import RasnV.Model.Base RasnV.Model.PerVisible RasnV.Gen.T03 RasnV.Model.Alphabet RasnV.Spec.AlphaSpec.
Require RasnV.Proofs.C04.
Import ListNotations.

Lemma collect_unknown fuel t cs : known_multiplier t = false -> collect fuel t cs = Ok [].
Proof.
  intro H. induction cs as [|c r IH]; cbn [collect]; [reflexivity|].
  unfold try_new. rewrite H. cbn [negb bind]. rewrite IH. reflexivity.
Qed.

Lemma denote_app l1 l2 c : denote (l1 ++ l2) c = denote l1 c || denote l2 c.
Proof. unfold denote. apply existsb_app. Qed.

Lemma denote_singles s c : denote (map SSingle s) c = str_contains s c.
Proof.
  unfold denote, str_contains. induction s as [|x s IH]; cbn; [reflexivity|].
  rewrite IH. rewrite (N.eqb_sym x c). reflexivity.
Qed.

Lemma find_index_from_nth cs c : forall i k, find_index_from i cs c = Some k ->
  (i <= k)%nat /\ nth_error cs (k - i) = Some c.
Proof.
  induction cs as [|d r IH]; intros i k H; cbn in H; [discriminate|].
  destruct (N.eqb c d) eqn:E.
  - injection H as <-. apply N.eqb_eq in E as ->. split; [lia|]. rewrite Nat.sub_diag. reflexivity.
  - destruct (IH (S i) k H) as [Hle Hn]. split; [lia|].
    replace (k - i)%nat with (S (k - S i)) by lia. exact Hn.
Qed.

Lemma find_char_index_nth cs c k : find_char_index cs c = Some k -> nth_error cs k = Some c.
Proof.
  unfold find_char_index. intro H. destruct (find_index_from_nth cs c 0 k H) as [_ Hn].
  rewrite Nat.sub_0_r in Hn. exact Hn.
Qed.

Lemma find_char_index_in cs c k : find_char_index cs c = Some k -> existsb (N.eqb c) cs = true.
Proof.
  intro H. apply (existsb_eqb_In N.eqb N.eqb_eq), (nth_error_In cs k), find_char_index_nth, H.
Qed.

Lemma simple_alpha_elem_inv e : simple_alpha_elem e = true ->
  (exists s, e = Single (VStr s) false) \/ (exists a b, e = Range (Some (VStr [a])) (Some (VStr [b])) false).
Proof.
  destruct e as [[|s|] [|] | lo hi x | | | | ]; try discriminate; [eauto|].
  destruct lo as [[|[|a [|]]|]|]; try discriminate. destruct hi as [[|[|b [|]]|]|]; try discriminate.
  destruct x; try discriminate. eauto.
Qed.

Lemma from_elem_simple cs e o :
  simple_alpha_elem e = true -> from_elem cs e = Ok o ->
  exists l, o = Some l /\ (forall c, denote l c = semb_alpha_elem e c) /\ forallb (subset_chars_in cs) l = true.
Proof.
  intros Hs Hf. destruct (simple_alpha_elem_inv e Hs) as [[s ->] | (a & b & ->)]; cbn [from_elem first_char_index] in Hf.
  - destruct (forallb _ s) eqn:E; [|discriminate Hf]. injection Hf as <-.
    eexists. split; [reflexivity|]. split; [intro c; apply denote_singles|].
    rewrite forallb_forall in *. intros x Hx. apply in_map_iff in Hx as (c & <- & Hc). specialize (E c Hc).
    destruct (find_char_index cs c) eqn:Ec; [|discriminate E]. exact (find_char_index_in cs c _ Ec).
  - destruct (find_char_index cs a) as [i|] eqn:Ea; cbn [bind] in Hf; [|discriminate Hf].
    destruct (find_char_index cs b) as [j|] eqn:Eb; cbn [bind] in Hf; [|discriminate Hf].
    destruct (Nat.ltb j i); [discriminate Hf|]. injection Hf as <-.
    rewrite (find_char_index_nth cs a i Ea), (find_char_index_nth cs b j Eb).
    eexists. split; [reflexivity|]. cbn.
    rewrite (find_char_index_in cs a i Ea), (find_char_index_in cs b j Eb). split; [intro c; apply orb_false_r | reflexivity].
Qed.

Lemma from_alpha_union_exact cs : forall inner l,
  union_only inner = true -> simple_alpha inner = true -> from_alpha_inner cs inner = Ok l ->
  forall c, denote l c = semb_alpha_rn inner c.
Proof.
  induction inner as [e | b o r IH]; intros l Hu Hs Hf c.
  - cbn [from_alpha_inner] in Hf. cbn [simple_alpha] in Hs.
    apply Proofs.C04.bind_ok in Hf as (o & E & Hf).
    destruct (from_elem_simple cs e o Hs E) as (l' & -> & Hd & _). injection Hf as <-. apply Hd.
  - destruct o; cbn [union_only] in Hu; try discriminate Hu.
    cbn [simple_alpha] in Hs. apply andb_true_iff in Hs as [Hsb Hsr].
    cbn [from_alpha_inner] in Hf.
    apply Proofs.C04.bind_ok in Hf as (ob & E & Hf). apply Proofs.C04.bind_ok in Hf as (l2 & E2 & Hf).
    destruct (from_elem_simple cs b ob Hsb E) as (l1 & -> & Hd & _). injection Hf as <-.
    rewrite denote_app, Hd, (IH l2 Hu Hsr E2). reflexivity.
Qed.

Lemma denote_cons x l c : denote (x :: l) c = denote [x] c || denote l c.
Proof. apply (denote_app [x]). Qed.

Lemma denote_insert x l c : denote (insert_sorted x l) c = denote (x :: l) c.
Proof.
  induction l as [|y r IH]; [reflexivity|]. cbn [insert_sorted].
  destruct (N.ltb (subset_key x) (subset_key y)); [reflexivity|].
  rewrite (denote_cons y), IH, (denote_cons x), (denote_cons x (y :: r)), (denote_cons y r).
  rewrite !orb_assoc. f_equal. apply orb_comm.
Qed.

Lemma denote_sort_from l : forall acc c,
  denote (fold_left (fun a x => insert_sorted x a) l acc) c = denote l c || denote acc c.
Proof.
  induction l as [|x l IH]; intros acc c; cbn [fold_left]; [reflexivity|].
  rewrite IH, denote_insert, (denote_cons x l), (denote_cons x acc). rewrite !orb_assoc. f_equal. apply orb_comm.
Qed.

Lemma denote_sort l c : denote (sort_subsets l) c = denote l c.
Proof. unfold sort_subsets. rewrite denote_sort_from. cbn. apply orb_false_r. Qed.

Lemma simple_alpha_unmarked inner : simple_alpha inner = true -> ends_with_marker inner = false.
Proof.
  induction inner as [e | b o r IH]; cbn [simple_alpha ends_with_marker]; intro H.
  - destruct (simple_alpha_elem_inv e H) as [[s ->] | (a & b & ->)]; reflexivity.
  - apply andb_true_iff in H as [_ Hr]. exact (IH Hr).
Qed.

Lemma annotation_union_exact fuel t inner ann :
  known_multiplier t = true -> union_only inner = true -> simple_alpha inner = true ->
  alphabet_annotation fuel t [{| cset := El (Alpha inner); cext := false |}] = Ok ann ->
  forall c, denote (match ann with Some l => l | None => [] end) c = semb_alpha_rn inner c.
Proof.
  intros Hk Hu Hs Ha c. unfold alphabet_annotation in Ha. cbn [collect] in Ha.
  unfold try_new in Ha. rewrite Hk in Ha. cbn [negb cset cext from_elem] in Ha. rewrite (simple_alpha_unmarked inner Hs) in Ha.
  destruct (from_alpha_inner (character_set t) inner) as [l| | |] eqn:E; cbn [bind] in Ha; try discriminate Ha.
  injection Ha as <-. rewrite app_nil_r.
  rewrite <- (from_alpha_union_exact (character_set t) inner l Hu Hs E c), <- (denote_sort l c).
  destruct (sort_subsets l); reflexivity.
Qed.

Lemma collect_a_cons fuel t cs : collect_a fuel t (map ACons cs) = collect fuel t cs.
Proof. induction cs as [|c r IH]; [reflexivity|]. cbn [map collect_a collect try_new_a]. now rewrite IH. Qed.

Lemma annotation_a_cons fuel t cs : alphabet_annotation_a fuel t (map ACons cs) = alphabet_annotation fuel t cs.
Proof. destruct cs as [|c r]; [reflexivity|]. unfold alphabet_annotation_a, alphabet_annotation. cbn [map]. now rewrite <- collect_a_cons. Qed.

Lemma inclusion_none_for_unknown fuel t t' cs' : known_multiplier t = false -> alphabet_annotation_a fuel t [AIncl t' cs'] = Ok None.
Proof. intro H. unfold alphabet_annotation_a. cbn [collect_a try_new_a]. rewrite H. reflexivity. Qed.

Lemma tables_match_all : forallb table_matches [NumericString; PrintableString; VisibleString; IA5String] = true.
Proof. vm_compute. reflexivity. Qed.

Lemma x680_defined t b c : x680_alphabet t c = Some b -> exists b0, x680_alphabet t 0 = Some b0.
Proof. destruct t; cbn [x680_alphabet]; intro H; try discriminate H; eexists; reflexivity. Qed.

Lemma in_rng_above lo hi c : (hi < c)%N -> in_rng lo hi c = false.
Proof. intro H. unfold in_rng. rewrite (proj2 (N.leb_gt c hi) H). apply andb_false_r. Qed.

Lemma x680_small t b c : x680_alphabet t c = Some b -> (256 <= c)%N -> b = false.
Proof.
  intros Hb Hc. destruct t; cbn [x680_alphabet] in Hb; try discriminate Hb; injection Hb as <-;
    rewrite ?in_rng_above, ?(proj2 (N.eqb_neq c _)) by lia; reflexivity.
Qed.

Lemma table_is_x680 t b c :
  In t [NumericString; PrintableString; VisibleString; IA5String] ->
  x680_alphabet t c = Some b -> existsb (N.eqb c) (character_set t) = b.
Proof.
  intros Ht Hb.
  destruct (x680_defined t b c Hb) as [b0 Hb0].
  assert (Hm : table_matches t = true).
  { pose proof tables_match_all as H. rewrite forallb_forall in H. exact (H t Ht). }
  unfold table_matches in Hm. rewrite Hb0 in Hm.
  apply andb_true_iff in Hm as [Hm Hall]. apply andb_true_iff in Hm as [Hlt _].
  destruct (N.ltb c 256) eqn:Hc.
  - apply N.ltb_lt in Hc. rewrite forallb_forall in Hall.
    assert (Hin : In (N.to_nat c) (seq 0 256)) by (apply in_seq; lia).
    specialize (Hall (N.to_nat c) Hin). rewrite N2Nat.id in Hall. rewrite Hb in Hall.
    now apply Bool.eqb_prop in Hall.
  - apply N.ltb_ge in Hc. rewrite (x680_small t b c Hb Hc).
    apply Bool.not_true_is_false. intro He. apply (existsb_eqb_In N.eqb N.eqb_eq) in He.
    rewrite forallb_forall in Hlt. specialize (Hlt c He). apply N.ltb_lt in Hlt. lia.
Qed.

Lemma try_new_extensible fuel t s : try_new fuel t {| cset := s; cext := true |} = Ok None.
Proof. unfold try_new. destruct (negb (known_multiplier t)); reflexivity. Qed.
