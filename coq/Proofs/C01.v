(* What the three verdicts of the checker of Model/WellFormed.v guarantee; then that the items Model/Hoist.v emits for
   types written in place, to any depth, pass its resolution check against the type's externals. *)
From Coq Require Import Arith List Bool.
Require Import RasnV.Model.Base RasnV.Model.Names RasnV.Model.Components RasnV.Model.WellFormed RasnV.Model.Hoist.
Import ListNotations.

Lemma dup_free_NoDup l : dup_free l = true -> NoDup l.
Proof.
  induction l as [|x r IH]; cbn; [constructor|]. intro H. apply andb_true_iff in H as [H1 H2].
  constructor; [|now apply IH]. intro Hin. apply str_in_In in Hin. rewrite Hin in H1. discriminate.
Qed.

Theorem resolved_iff items universe :
  resolved items universe = true <->
  forall it n, In it items -> In n (i_mentions it) -> In n (map i_name items) \/ In n universe.
Proof.
  unfold resolved. rewrite forallb_forall. split.
  - intros H it n Hit Hn. specialize (H it Hit). rewrite forallb_forall in H. specialize (H n Hn).
    rewrite orb_true_iff, !str_in_In in H. exact H.
  - intros H it Hit. apply forallb_forall. intros n Hn. rewrite orb_true_iff, !str_in_In. exact (H it n Hit Hn).
Qed.

(* by-value containment between items of the module *)
Inductive contains (items : list item) : str -> str -> Prop :=
| contains_step a b it : In it items -> i_name it = a -> In b (i_by_value it) -> In b (map i_name items) -> contains items a b
| contains_trans a b c : contains items a b -> contains items b c -> contains items a c.

Lemma index_of_some n l : In n l -> exists k, index_of n l = Some k.
Proof.
  induction l as [|x r IH]; cbn; [intros []|]. intro H. destruct (str_eqb n x) eqn:E; [now exists 0|].
  destruct H as [->|H]; [now rewrite str_eqb_refl in E|].
  destruct (IH H) as [k ->]. now exists (S k).
Qed.

Theorem finite_by_sound order items :
  finite_by order items = true -> (forall it, In it items -> In (i_name it) order) ->
  forall a b, contains items a b ->
    exists ia ib, index_of a order = Some ia /\ index_of b order = Some ib /\ ib < ia.
Proof.
  intros H Hall a b Hc.
  induction Hc as [a b it Hit <- Hb Hbi | a b c _ (ia & ib & Ha & Hb & Hlt) _ (ib' & ic & Hb' & Hc & Hlt')].
  - apply in_map_iff in Hbi as [itb [<- Hitb]].
    destruct (index_of_some _ _ (Hall it Hit)) as [ia Ea], (index_of_some _ _ (Hall itb Hitb)) as [ib Eb].
    unfold finite_by in H. rewrite forallb_forall in H. specialize (H it Hit).
    rewrite forallb_forall in H. specialize (H _ Hb).
    unfold edge_ok in H. rewrite Ea, Eb in H. apply Nat.ltb_lt in H. eauto.
  - rewrite Hb in Hb'. injection Hb' as <-. exists ia, ic. split; [exact Ha | split; [exact Hc | exact (Nat.lt_trans _ _ _ Hlt' Hlt)]].
Qed.

Section rty_ind_nested.
  Variable P : rty -> Prop.
  Hypothesis HPlain : forall t, P (RPlain t).
  Hypothesis HRef : forall n, P (RRef n).
  Hypothesis HEnum : forall ns, P (REnum ns).
  Hypothesis HStruct : forall ms, Forall (fun p => P (snd p)) ms -> P (RStruct ms).
  Hypothesis HChoice : forall ms, Forall (fun p => P (snd p)) ms -> P (RChoice ms).
  Fixpoint rty_ind_nested (t : rty) : P t :=
    let all := list_ind (Forall _) (Forall_nil _) (fun p r => Forall_cons p (rty_ind_nested (snd p))) in
    match t with
    | RPlain x => HPlain x
    | RRef n => HRef n
    | REnum ns => HEnum ns
    | RStruct ms => HStruct ms (all ms)
    | RChoice ms => HChoice ms (all ms)
    end.
End rty_ind_nested.

Lemma emit_name_in name t : In name (map i_name (emit name t)).
Proof. destruct t; now left. Qed.

(* the local loops of [emit] and [externals] are flat_maps over the members *)
Definition nested (name : str) (ms : list (str * rty)) : list item :=
  flat_map (fun p => if nests (snd p) then emit (inner_name (fst p) name) (snd p) else []) ms.

Definition member_types (name : str) (ms : list (str * rty)) : list str :=
  map (fun m => written (snd m) (fst m) name) ms.

Lemma emit_struct name ms :
  emit name (RStruct ms) = mkitem name (map (fun m => snake (fst m)) ms) (member_types name ms) [] :: nested name ms.
Proof. cbn [emit]. f_equal. unfold nested. induction ms as [|[n t] r IH]; cbn [flat_map fst snd]; [reflexivity | now rewrite IH]. Qed.

Lemma emit_choice name ms :
  emit name (RChoice ms) = mkitem name (map (fun m => enum_ident (fst m)) ms) (member_types name ms) [] :: nested name ms.
Proof. cbn [emit]. f_equal. unfold nested. induction ms as [|[n t] r IH]; cbn [flat_map fst snd]; [reflexivity | now rewrite IH]. Qed.

Lemma externals_struct ms : externals (RStruct ms) = flat_map (fun p => externals (snd p)) ms.
Proof. cbn [externals]. induction ms as [|[n t] r IH]; cbn [flat_map snd]; [reflexivity | now rewrite IH]. Qed.

Lemma externals_choice ms : externals (RChoice ms) = flat_map (fun p => externals (snd p)) ms.
Proof. cbn [externals]. induction ms as [|[n t] r IH]; cbn [flat_map snd]; [reflexivity | now rewrite IH]. Qed.

(* [resolved (emit name t) (externals t) = true], in the form resolved_iff gives it *)
Definition closed_for (name : str) (t : rty) : Prop :=
  forall it n, In it (emit name t) -> In n (i_mentions it) -> In n (map i_name (emit name t)) \/ In n (externals t).

(* the member is written with exactly the name its in-place type is emitted under *)
Lemma written_resolves name m t :
  In (written t m name) (map i_name (if nests t then emit (inner_name m name) t else [])) \/
  In (written t m name) (externals t).
Proof. destruct t; cbn [written nests externals]; try (now right; left); left; apply emit_name_in. Qed.

Lemma constructed_closed name ms head :
  Forall (fun p => forall nm, closed_for nm (snd p)) ms ->
  i_mentions head = member_types name ms ->
  forall it n, In it (head :: nested name ms) -> In n (i_mentions it) ->
    In n (map i_name (head :: nested name ms)) \/ In n (flat_map (fun p => externals (snd p)) ms).
Proof.
  intros Hall Hhead it n Hit Hn. rewrite Forall_forall in Hall.
  (* n comes from one member (m, t): it is its written type, or an item emitted for t mentions it *)
  assert (exists m t, In (m, t) ms /\
            (In n (map i_name (if nests t then emit (inner_name m name) t else [])) \/ In n (externals t)))
    as (m & t & Hm & H).
  { destruct Hit as [<-|Hit].
    - rewrite Hhead in Hn. apply in_map_iff in Hn as [[m t] [<- Hm]]. exists m, t. split; [exact Hm | apply written_resolves].
    - apply in_flat_map in Hit as [[m t] [Hm Hit]]. cbn [fst snd] in Hit. exists m, t. split; [exact Hm|].
      destruct (nests t); [exact (Hall _ Hm _ it n Hit Hn) | destruct Hit]. }
  destruct H as [H|H]; [left; right | right].
  - apply in_map_iff in H as [it' [<- Hit']]. apply in_map, in_flat_map. now exists (m, t).
  - apply in_flat_map. now exists (m, t).
Qed.

Theorem emit_closed : forall t name, closed_for name t.
Proof.
  induction t using rty_ind_nested; intro name; unfold closed_for.
  1-3: intros it m [<-|[]] Hm; right; exact Hm.
  - rewrite emit_struct, externals_struct. now apply constructed_closed.
  - rewrite emit_choice, externals_choice. now apply constructed_closed.
Qed.
