From Coq Require Import NArith List Bool.
Require Import RasnV.Model.Base RasnV.Model.TsGen RasnV.Spec.TsShape.
Import ListNotations.

Section ty_ind_nested.
  Variable P : ty -> Prop.
  Hypothesis HNull : P TNull.
  Hypothesis HBool : P TBool.
  Hypothesis HNum : P TNum.
  Hypothesis HBF : P TBitsFixed.
  Hypothesis HBV : P TBitsVar.
  Hypothesis HOct : P TOctets.
  Hypothesis HStr : P TStrLike.
  Hypothesis HEnum : forall names, P (TEnum names).
  Hypothesis HChoice : forall alts, Forall (fun p => P (snd p)) alts -> P (TChoice alts).
  Hypothesis HStruct : forall ms ext, Forall (fun p => P (snd p)) ms -> P (TStruct ms ext).
  Hypothesis HOf : forall e, P e -> P (TOf e).
  Hypothesis HRef : forall n, P (TRef n).
  Hypothesis HAny : P TAny.

  Fixpoint ty_ind_nested (t : ty) : P t :=
    match t with
    | TNull => HNull | TBool => HBool | TNum => HNum | TBitsFixed => HBF | TBitsVar => HBV
    | TOctets => HOct | TStrLike => HStr
    | TEnum names => HEnum names
    | TChoice alts =>
        HChoice alts (list_ind (Forall _) (Forall_nil _) (fun p r => Forall_cons p (ty_ind_nested (snd p))) alts)
    | TStruct ms ext =>
        HStruct ms ext (list_ind (Forall _) (Forall_nil _) (fun p r => Forall_cons p (ty_ind_nested (snd p))) ms)
    | TOf e => HOf e (ty_ind_nested e)
    | TRef n => HRef n
    | TAny => HAny
    end.
End ty_ind_nested.

Lemma type_tokens_of e :
  type_tokens (TOf e) = if is_union (jer_shape e) then [t_lparen] ++ type_tokens e ++ [t_rparen; t_lbrack; t_rbrack]
                        else type_tokens e ++ [t_lbrack; t_rbrack].
Proof. destruct e; reflexivity. Qed.

Theorem render_canonical : forall t, type_tokens t = print_shape (jer_shape t).
Proof.
  induction t as [| | | | | | | names | alts H | ms ext H | e IHe | n |] using ty_ind_nested; try reflexivity.
  - cbn [type_tokens jer_shape print_shape]. apply (f_equal join_bar).
    induction H as [|[n a] r Ha _ IH]; [reflexivity|].
    cbn [snd] in Ha. rewrite Ha, IH. reflexivity.
  - cbn [type_tokens jer_shape print_shape]. apply (f_equal (app [t_lbrace])), (f_equal (fun l => l ++ _)).
    induction H as [|[[n o] a] r Ha _ IH]; [reflexivity|].
    cbn [snd] in Ha. rewrite Ha, IH. reflexivity.
  - rewrite type_tokens_of, IHe. reflexivity.
Qed.

Theorem decl_canonical : forall name t, decl_tokens name t = print_decl (jer_decl name t).
Proof.
  intros name t.
  assert (G : [k_export; k_type; to_jer name; t_eq] ++ type_tokens t ++ [t_semi]
              = print_decl (DType (to_jer name) (jer_shape t))) by (rewrite render_canonical; reflexivity).
  destruct t; try exact G; [reflexivity|].
  cbn [decl_tokens jer_decl print_decl]. rewrite !flat_map_concat_map, map_map. reflexivity.
Qed.

Definition neutral_run (l : list tok) : Prop := forall stack rest, bal stack (l ++ rest) = bal stack rest.
Definition neutral (x : tok) : Prop := closer_of x = None /\ is_closer x = false.

Lemma bal_neutral x s l : neutral x -> bal s (x :: l) = bal s l.
Proof. intros [C K]. cbn [bal]. rewrite C, K. reflexivity. Qed.

Lemma bal_open o c s l : closer_of o = Some c -> bal s (o :: l) = bal (c :: s) l.
Proof. intro C. cbn [bal]. rewrite C. reflexivity. Qed.

Lemma neutral_strlit n : neutral (strlit n).
Proof. split; reflexivity. Qed.

(* an identifier begins with a letter, a delimiter is a single character that is none *)
Lemma neutral_ident n : ident_like n = true -> neutral (to_jer n).
Proof.
  destruct n as [|c r]; [discriminate|]. cbn [ident_like]. intro Hc.
  assert (E : forall x, is_letter x = false -> (c =? x)%N = false).
  { intros x Hx. destruct (N.eqb_spec c x) as [->|]; congruence. }
  unfold to_jer. cbn [map]. rewrite (E 45%N eq_refl).
  unfold neutral, closer_of, is_closer. cbn [str_eqb t_lbrace t_rbrace t_lbrack t_rbrack t_lparen t_rparen].
  rewrite !E by reflexivity. split; reflexivity.
Qed.

Create HintDb neutral.
#[local] Hint Resolve neutral_ident neutral_strlit : neutral.
#[local] Hint Extern 1 (neutral _) => split; reflexivity : neutral.
#[local] Hint Extern 1 (closer_of _ = Some _) => reflexivity : neutral.

Lemma neutral_run_join_bar parts : Forall neutral_run parts -> neutral_run (join_bar parts).
Proof.
  induction 1 as [|p r Hp Hr IH]; [intros s r; reflexivity|].
  cbn [join_bar]. destruct r as [|q r']; [exact Hp|].
  intros s r. rewrite <- app_assoc, Hp. cbn [app]. rewrite bal_neutral by auto with neutral. apply IH.
Qed.

(* right-nested form, in which bal can be run token by token *)
#[local] Hint Rewrite <- app_assoc app_comm_cons : flat.
#[local] Hint Rewrite app_nil_l : flat.

Theorem type_tokens_balanced : forall t, wf_names t = true -> neutral_run (type_tokens t).
Proof.
  induction t as [| | | | | | | names | alts H | ms ext H | e IHe | n |] using ty_ind_nested;
    intro Hwf; try (intros s r; reflexivity); cbn [wf_names] in Hwf.
  - cbn [type_tokens]. apply neutral_run_join_bar, Forall_forall. intros p Hp. apply in_map_iff in Hp as [n [<- _]].
    intros s r. apply bal_neutral, neutral_strlit.
  - cbn [type_tokens]. apply neutral_run_join_bar.
    induction H as [|[n a] r Ha _ IH]; [constructor|]. cbn [snd] in Ha.
    apply andb_true_iff in Hwf as [[Hn Hwa]%andb_true_iff Hr].
    constructor; [|exact (IH Hr)].
    intros s r'. autorewrite with flat.
    rewrite (bal_open t_lbrace t_rbrace), !bal_neutral, (Ha Hwa) by auto with neutral. reflexivity.
  - intros s r. cbn [type_tokens]. autorewrite with flat. rewrite (bal_open t_lbrace t_rbrace) by reflexivity.
    induction H as [|[[n o] a] ms Ha _ IH]; [destruct ext; reflexivity|]. cbn [snd] in Ha.
    apply andb_true_iff in Hwf as [[Hn Hwa]%andb_true_iff Hr].
    assert (Q : neutral_run (if o then [t_quest] else [])) by (destruct o; intros s' r'; reflexivity).
    autorewrite with flat.
    rewrite bal_neutral, Q, bal_neutral, (Ha Hwa), bal_neutral by auto with neutral. exact (IH Hr).
  - specialize (IHe Hwf). intros s r. rewrite type_tokens_of.
    destruct (is_union _); autorewrite with flat; rewrite ?(bal_open t_lparen t_rparen) by reflexivity;
      rewrite IHe; reflexivity.
  - intros s r. apply bal_neutral. auto with neutral.
Qed.

Theorem decl_tokens_balanced : forall name t,
  ident_like name = true -> wf_names t = true -> neutral_run (decl_tokens name t).
Proof.
  intros name t Hn Hwf s r.
  assert (G : bal s (([k_export; k_type; to_jer name; t_eq] ++ type_tokens t ++ [t_semi]) ++ r) = bal s r).
  { autorewrite with flat. rewrite !bal_neutral, (type_tokens_balanced t Hwf) by auto with neutral. reflexivity. }
  (* G also closes OCTET STRING, whose template differs from the generic one in neutral keywords only, through which
     bal computes; what is left is ENUMERATED, one neutral member per name *)
  destruct t; try exact G. clear G.
  cbn [decl_tokens]. autorewrite with flat.
  rewrite !bal_neutral, (bal_open t_lbrace t_rbrace) by auto with neutral.
  cbn [wf_names] in Hwf. induction names as [|n l IH]; [reflexivity|].
  apply andb_true_iff in Hwf as [Hn1 Hl].
  cbn [flat_map]. autorewrite with flat. rewrite !bal_neutral by auto with neutral. exact (IH Hl).
Qed.
