From Coq Require Import NArith List Bool Lia.
Require Import RasnV.Model.Base RasnV.Model.Names RasnV.Model.Ext RasnV.Spec.Idents RasnV.Proofs.Idents RasnV.Proofs.Indexed.
Import ListNotations.

(* the fourth character of `ext_group_...` is an underscore, which no ASN.1 identifier contains: a written component
   never looks like a group *)
Lemma ident_not_group s : asn1_ident s = true -> starts_with group_prefix s = false.
Proof.
  intro H. apply asn1_ident_inv in H as (c & r & -> & _ & Hr).
  destruct r as [|c1 [|c2 [|c3 r]]]; cbn [starts_with group_prefix]; rewrite ?andb_false_r; try reflexivity.
  destruct (N.eqb_spec 95 c3) as [<-|]; [|now rewrite !andb_false_r].
  cbn in Hr. now rewrite !andb_false_r in Hr.
Qed.

(* what a member is rendered as once the running index has decided root / addition *)
Definition annotation (addition : bool) (name : str) : ext_annotation :=
  if addition then (if starts_with group_prefix name then ExtGroup else ExtAddition) else NoAnn.

Definition field_of (addition : bool) (m : ir_member) : field :=
  {| fname := iname m;
     foption := match iopt m with Optional => true | _ => false end || starts_with group_prefix (iname m);
     fann := annotation addition (iname m);
     finner := option_map inner_fields (igroup m) |}.

Lemma annotation_at_is e i name : annotation_at e i name = annotation (is_addition e i) name.
Proof. destruct e; reflexivity. Qed.

Lemma render_from_imap e ms : forall i, render_from e i ms = imap (fun j => field_of (is_addition e j)) i ms.
Proof.
  induction ms as [|m r IH]; intro i; cbn [render_from imap]; [reflexivity|]. rewrite IH. f_equal.
  unfold render_member. now rewrite annotation_at_is.
Qed.

Lemma render_choice_from_imap e ms : forall i,
  render_choice_from e i ms = imap (fun j m => (mname m, annotation (is_addition e j) (mname m))) i ms.
Proof.
  induction ms as [|m r IH]; intro i; cbn [render_choice_from imap]; [reflexivity|]. now rewrite IH, annotation_at_is.
Qed.

Theorem render_seq_build root marker adds :
  render_seq (build_seq root marker adds)
  = map (fun m => field_of false (of_member m)) root ++ map (fun a => field_of marker (of_addition a)) adds.
Proof.
  unfold render_seq, build_seq. cbn [members extensible].
  rewrite render_from_imap, <- (map_length of_member root), (imap_root_adds field_of), !map_map. reflexivity.
Qed.

Theorem render_choice_build root marker adds :
  render_choice (build_choice root marker adds)
  = map (fun m => (mname m, annotation false (mname m))) root
    ++ map (fun m => (mname m, annotation marker (mname m))) (flat_map choice_alts adds).
Proof.
  unfold render_choice, build_choice. cbn [options cextensible]. rewrite render_choice_from_imap.
  apply (imap_root_adds (fun b m => (mname m, annotation b (mname m)))).
Qed.

Lemma annotation_ident addition name :
  asn1_ident name = true -> annotation addition name = if addition then ExtAddition else NoAnn.
Proof. intro H. unfold annotation. now rewrite (ident_not_group _ H). Qed.

Lemma field_of_member addition m :
  asn1_ident (mname m) = true ->
  field_of addition (of_member m)
  = {| fname := mname m; foption := match mopt m with Optional => true | _ => false end;
       fann := if addition then ExtAddition else NoAnn; finner := None |}.
Proof.
  intro H. unfold field_of, of_member. cbn [iname iopt igroup option_map].
  now rewrite (annotation_ident _ _ H), (ident_not_group _ H), orb_false_r.
Qed.

Lemma seq_marked_iff root adds k f :
  nth_error (render_seq (build_seq root true adds)) k = Some f ->
  (fann f <> NoAnn <-> length root <= k).
Proof.
  rewrite render_seq_build. intro Hk.
  apply nth_root_adds in Hk as [[Hk [x [_ ->]]]|[Hk [x [_ ->]]]]; cbn [fann field_of].
  - split; [intro H; now destruct H | lia].
  - split; [intros _; exact Hk | intros _]. unfold annotation. now destruct (starts_with group_prefix (iname (of_addition x))).
Qed.

Lemma choice_marked_iff root adds k nm a :
  Forall (fun m => asn1_ident (mname m) = true) (root ++ flat_map choice_alts adds) ->
  nth_error (render_choice (build_choice root true adds)) k = Some (nm, a) ->
  (a = ExtAddition <-> length root <= k) /\ (a = NoAnn <-> k < length root).
Proof.
  rewrite render_choice_build, Forall_forall. intros Hall Hk.
  apply nth_root_adds in Hk as [(Hk & m & Hm & E)|(Hk & m & Hm & E)];
    apply (f_equal snd) in E; cbn [snd] in E; subst a;
    rewrite annotation_ident by (apply Hall, in_or_app; auto).
  - (* in the root: a is NoAnn and k < length root *)
    split; split; intro H; (discriminate H || trivial || lia).
  - (* after it: a is ExtAddition and length root <= k *)
    split; split; intro H; (discriminate H || trivial || lia).
Qed.
