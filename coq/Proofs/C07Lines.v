(* The cstring literal: first the raw literal between its quotation marks, a doubled mark inside standing for one
   (escape, unescape, the scan of take_until_and_not); then its lines: the spacing around every line break is dropped
   and the pieces are concatenated. *)
From Coq Require Import NArith List Bool Lia.
Require Import RasnV.Model.Base RasnV.Model.Values RasnV.Spec.ValSpec.
Require Import RasnV.Proofs.C07.
Import ListNotations.

Lemma escape_cons c s : escape (c :: s) = (if N.eqb c QUOTE then [QUOTE; QUOTE] else [c]) ++ escape s.
Proof. reflexivity. Qed.

Lemma escape_app a b : escape (a ++ b) = escape a ++ escape b.
Proof. unfold escape. apply flat_map_app. Qed.

Definition noq (p : list N) : Prop := Forall (fun c => N.eqb c QUOTE = false) p.

Lemma escape_noq p : noq p -> escape p = p.
Proof. induction 1 as [|c p Hc _ IH]; [reflexivity|]. rewrite escape_cons, Hc, IH. reflexivity. Qed.

Lemma escape_hd x : hd 0%N (escape x) = hd 0%N x.
Proof. destruct x as [|c x]; [reflexivity|]. rewrite escape_cons. destruct (N.eqb_spec c QUOTE) as [->|]; reflexivity. Qed.

Lemma escape_last x : last (escape x) 0%N = last x 0%N.
Proof.
  destruct x as [|a x] using rev_ind; [reflexivity|].
  rewrite escape_app, escape_cons, last_last. cbn [escape flat_map]. rewrite app_nil_r.
  destruct (N.eqb_spec a QUOTE) as [->|]; [|apply last_last].
  change [QUOTE; QUOTE] with ([QUOTE] ++ [QUOTE]). now rewrite app_assoc, last_last.
Qed.

Lemma escape_no_nl s : no_nl s -> no_nl (escape s).
Proof.
  induction 1 as [|c s Hc _ IH]; [constructor|]. rewrite escape_cons.
  destruct (N.eqb_spec c QUOTE) as [->|]; repeat constructor; assumption.
Qed.

Lemma unescape_quotes l : unescape (QUOTE :: QUOTE :: l) = QUOTE :: unescape l.
Proof. reflexivity. Qed.

Lemma unescape_other c l : N.eqb c QUOTE = false -> unescape (c :: l) = c :: unescape l.
Proof. intro H. destruct l; cbn [unescape]; [reflexivity | now rewrite H]. Qed.

Lemma unescape_escape s : unescape (escape s) = s.
Proof.
  induction s as [|c s IH]; [reflexivity|]. rewrite escape_cons.
  destruct (N.eqb_spec c QUOTE) as [->|Hc]; cbn [app].
  - now rewrite unescape_quotes, IH.
  - apply N.eqb_neq in Hc. now rewrite unescape_other, IH.
Qed.

Lemma skipn_S {A} c x : forall i (l : list A), skipn i l = c :: x -> skipn (S i) l = x.
Proof. induction i as [|i IH]; intros [|a l] H; try discriminate H; [now injection H as _ -> | exact (IH l H)]. Qed.

Lemma recursive_until_other fuel l index c x :
  skipn index l = c :: x -> N.eqb c QUOTE = false ->
  recursive_until fuel [QUOTE] [QUOTE; QUOTE] l index = recursive_until fuel [QUOTE] [QUOTE; QUOTE] l (S index).
Proof.
  intros H Hc. destruct fuel as [|fuel]; [reflexivity|]. cbn [recursive_until].
  rewrite (skipn_S _ _ _ _ H), H. cbn [find_sub starts]. rewrite N.eqb_sym, Hc. cbn [andb].
  destruct (find_sub [QUOTE] x) as [e|], (find_sub [QUOTE; QUOTE] x) as [o|]; cbn [option_map Nat.eqb];
    try destruct (Nat.eqb e o); f_equal; lia.
Qed.

Lemma recursive_until_spec s : forall fuel l index rest,
  skipn index l = escape s ++ QUOTE :: rest -> (length (escape s) < fuel)%nat -> N.eqb (hd 0%N rest) QUOTE = false ->
  recursive_until fuel [QUOTE] [QUOTE; QUOTE] l index = Some (index + length (escape s))%nat.
Proof.
  induction s as [|c s IH]; intros [|fuel] l index rest H Hf Hr; try lia.
  - cbn [recursive_until]. rewrite H. cbn [escape flat_map app find_sub starts]. rewrite N.eqb_refl.
    destruct rest as [|t rest]; [reflexivity|]. cbn [hd] in Hr. rewrite N.eqb_sym, Hr. cbn [andb].
    now destruct (find_sub _ (t :: rest)).
  - rewrite escape_cons in *. destruct (N.eqb c QUOTE) eqn:E; cbn [app length] in H, Hf.
    + (* a doubled quotation mark: both searches find it at once, and the scan resumes behind it *)
      cbn [recursive_until]. rewrite H. cbn [find_sub starts]. rewrite N.eqb_refl. cbn [andb Nat.eqb length].
      rewrite (IH fuel l _ rest); [f_equal; cbn [app length]; lia | | lia | exact Hr].
      replace (index + 0 + 2)%nat with (S (S index)) by lia. exact (skipn_S _ _ _ _ (skipn_S _ _ _ _ H)).
    + rewrite (recursive_until_other _ _ _ _ _ H E), (IH (S fuel) l _ rest (skipn_S _ _ _ _ H)); [|lia | exact Hr].
      f_equal. cbn [app length]. lia.
Qed.

Lemma raw_spec s rest :
  N.eqb (hd 0%N rest) QUOTE = false ->
  raw_string_literal (QUOTE :: escape s ++ QUOTE :: rest) = Some (escape s, rest).
Proof.
  intro Hr. unfold raw_string_literal, take_until_and_not. rewrite N.eqb_refl.
  rewrite (recursive_until_spec s _ _ 0 rest eq_refl); [| | exact Hr].
  - cbn [Nat.add]. now rewrite firstn_app_exact, skipn_app_exact, N.eqb_refl.
  - rewrite app_length. lia.
Qed.

(* a continuation line: spacing, line break, spacing, text *)
Record seg := mkseg { g_sp1 : list N; g_nl : N; g_sp2 : list N; g_text : list N }.

Fixpoint plain_rest (segs : list seg) : list N :=
  match segs with
  | [] => []
  | g :: r => g_sp1 g ++ g_nl g :: g_sp2 g ++ g_text g ++ plain_rest r
  end.
Fixpoint src_rest (segs : list seg) : list N :=
  match segs with
  | [] => []
  | g :: r => g_sp1 g ++ g_nl g :: g_sp2 g ++ escape (g_text g) ++ src_rest r
  end.
Fixpoint good_segs (segs : list seg) : Prop :=
  match segs with
  | [] => True
  | g :: r => spacing (g_sp1 g) /\ spacing (g_sp2 g) /\ is_nl (g_nl g) = true /\ no_nl (g_text g) /\
              is_sp (hd 0%N (g_text g)) = false /\ (r <> [] -> is_sp (last (g_text g) 0%N) = false) /\ good_segs r
  end.
Fixpoint texts (segs : list seg) : list N :=
  match segs with [] => [] | g :: r => g_text g ++ texts r end.

Lemma no_nl_app a b : no_nl a -> no_nl b -> no_nl (a ++ b).
Proof. intros. apply Forall_app. now split. Qed.

Lemma split_nl_app x y cur : no_nl x -> split_nl (x ++ y) cur = split_nl y (rev x ++ cur).
Proof.
  intro H. revert cur. induction H as [|c x Hc _ IH]; intro cur; cbn [app split_nl rev]; [reflexivity|].
  now rewrite Hc, IH, <- app_assoc.
Qed.

Lemma split_nl_no_nl x cur : no_nl x -> split_nl x cur = [rev cur ++ x].
Proof.
  intro H. pose proof (split_nl_app x [] cur H) as E. rewrite app_nil_r in E. rewrite E. cbn [split_nl].
  now rewrite rev_app_distr, rev_involutive.
Qed.

Lemma split_nl_break x nl y cur :
  no_nl x -> is_nl nl = true -> split_nl (x ++ nl :: y) cur = (rev cur ++ x) :: split_nl y [].
Proof.
  intros H Hn. rewrite (split_nl_app _ _ _ H). cbn [split_nl]. now rewrite Hn, rev_app_distr, rev_involutive.
Qed.

Lemma split_nl_nonempty l : forall cur, split_nl l cur <> [].
Proof.
  induction l as [|c l IH]; intro cur; cbn [split_nl]; [discriminate|]. destruct (is_nl c); [discriminate | apply IH].
Qed.

Lemma spacing_Forall (P : N -> Prop) l : P 32%N -> P 9%N -> spacing l -> Forall P l.
Proof.
  intros H32 H9. apply Forall_impl. intros c Hc. unfold is_sp in Hc.
  apply orb_true_iff in Hc as [Hc|Hc]; apply N.eqb_eq in Hc; now subst.
Qed.

Lemma spacing_noq l : spacing l -> noq l.
Proof. now apply spacing_Forall. Qed.

Lemma spacing_no_nl l : spacing l -> no_nl l.
Proof. now apply spacing_Forall. Qed.

Lemma nl_noq nl : is_nl nl = true -> N.eqb nl QUOTE = false.
Proof. unfold is_nl. intro H. repeat (apply orb_true_iff in H as [H|H]); apply N.eqb_eq in H; subst; reflexivity. Qed.

Lemma trim_start_spacing sp x : spacing sp -> is_sp (hd 0%N x) = false -> trim_start (sp ++ x) = x.
Proof.
  intros H Hx. induction H as [|c sp Hc _ IH]; cbn [app].
  - destruct x as [|y x]; [reflexivity|]. cbn [hd] in Hx. cbn [trim_start]. now rewrite Hx.
  - cbn [trim_start]. now rewrite Hc.
Qed.

Lemma trim_end_spacing x sp : spacing sp -> is_sp (last x 0%N) = false -> trim_end (x ++ sp) = x.
Proof.
  intros H Hx. unfold trim_end. rewrite rev_app_distr.
  rewrite (trim_start_spacing (rev sp) (rev x) (Forall_rev H)); [apply rev_involutive|].
  destruct x as [|a x] using rev_ind; [reflexivity|].
  rewrite rev_app_distr. cbn [rev app hd]. now rewrite last_last in Hx.
Qed.

Lemma trim_start_all sp : spacing sp -> trim_start sp = [].
Proof. induction 1 as [|c sp Hc _ IH]; [reflexivity|]. cbn [trim_start]. now rewrite Hc. Qed.

Lemma trim_both sp2 x sp1 :
  spacing sp2 -> spacing sp1 -> is_sp (hd 0%N x) = false -> is_sp (last x 0%N) = false ->
  trim_end (trim_start (sp2 ++ x ++ sp1)) = x.
Proof.
  intros H2 H1 Hh Hl. destruct x as [|c x].
  - cbn [app]. rewrite trim_start_all; [reflexivity|]. apply Forall_app. now split.
  - rewrite trim_start_spacing; [| exact H2 | exact Hh]. now apply trim_end_spacing.
Qed.

(* the source is the escaped form of a text: only the texts hold quotation marks *)
Lemma escape_plain_rest segs : good_segs segs -> escape (plain_rest segs) = src_rest segs.
Proof.
  induction segs as [|g r IH]; [reflexivity|]. cbn [good_segs plain_rest src_rest].
  intros (H1 & H2 & Hn & _ & _ & _ & Hr).
  rewrite escape_app, (escape_noq _ (spacing_noq _ H1)), escape_cons, (nl_noq _ Hn).
  now rewrite !escape_app, (escape_noq _ (spacing_noq _ H2)), (IH Hr).
Qed.

Lemma join_lines_more first x ls :
  ls <> [] -> join_lines first (x :: ls) = trim_end (if first then x else trim_start x) ++ join_lines false ls.
Proof. now destruct ls. Qed.

(* one line sp ++ escape b and the continuation lines after it; the first line of the literal has no spacing before it
   and keeps whatever it begins with *)
Lemma join_split segs : forall (first : bool) sp b,
  spacing sp -> (if first then sp = [] else is_sp (hd 0%N b) = false) -> no_nl b ->
  (segs <> [] -> is_sp (last b 0%N) = false) -> good_segs segs ->
  join_lines first (split_nl (sp ++ escape b ++ src_rest segs) []) = escape (b ++ texts segs).
Proof.
  induction segs as [|g r IH]; intros first sp b Hsp Hf Hb Hl Hg; cbn [src_rest texts].
  - rewrite !app_nil_r, split_nl_no_nl by auto using no_nl_app, spacing_no_nl, escape_no_nl.
    cbn [rev app join_lines]. destruct first; [now subst | apply trim_start_spacing; now rewrite ?escape_hd].
  - destruct Hg as (H1 & H2 & Hn & Ht & Hh & Hl' & Hr). specialize (Hl ltac:(discriminate)).
    rewrite (escape_app b), !app_assoc, split_nl_break, <- (app_assoc (g_sp2 g)) by auto using no_nl_app, spacing_no_nl, escape_no_nl.
    rewrite join_lines_more, (IH false _ _ H2 Hh Ht Hl' Hr) by apply split_nl_nonempty. cbn [rev app]. f_equal.
    destruct first.
    + subst sp. apply trim_end_spacing; [exact H1 | now rewrite escape_last].
    + rewrite <- app_assoc. apply trim_both; now rewrite ?escape_hd, ?escape_last.
Qed.

Theorem cstring_lines a segs rest :
  no_nl a -> (segs <> [] -> is_sp (last a 0%N) = false) -> good_segs segs ->
  N.eqb (hd 0%N rest) QUOTE = false ->
  cstring (QUOTE :: (escape a ++ src_rest segs) ++ QUOTE :: rest) = Some (a ++ texts segs, rest).
Proof.
  intros Ha Hl Hg Hr. unfold cstring.
  rewrite <- (escape_plain_rest segs Hg), <- escape_app, (raw_spec _ rest Hr), escape_app, (escape_plain_rest segs Hg).
  pose proof (join_split segs true [] a (Forall_nil _) eq_refl Ha Hl Hg) as J. cbn [app] in J.
  now rewrite J, unescape_escape.
Qed.
