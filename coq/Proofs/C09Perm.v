(* C09, the whole linking pass, COMPONENTS OF at ANY position: what the pass yields for an acyclic chain is, exactly, the type's
   own components followed by what each notation stands for, in the order of the notations ([appended]) -- a permutation of the
   meaning of the notation.  So the known finding C09-components-of-appended is about order only: no component is lost, added or
   duplicated, whatever the position of the notations, the depth of the chain or the order of the names.
   The pass is a fold over the names in descending order; the invariant says that every definition is either still as
   parsed or finished -- no pending references, and, if it heads an acyclic chain, the members [appended] gives it. *)
From Coq Require Import NArith List Lia Permutation.
Require Import RasnV.Model.Base RasnV.Model.Expansion.
Require Import RasnV.Proofs.C09.
Import ListNotations.

Lemma appended_owns f ds k items : refs_of items = [] -> appended f ds k items = own_names items.
Proof. intro H. destruct f; [reflexivity|]. cbn [appended]. rewrite H. apply app_nil_r. Qed.

Lemma expand_perm_appended ds k : forall f items, Permutation (expand f ds k items) (appended f ds k items).
Proof.
  induction f as [|f IH]; intro items; [reflexivity|]. cbn [expand appended].
  induction items as [|[n|r] l IHl]; cbn [flat_map own_names refs_of app].
  - reflexivity.
  - constructor. exact IHl.
  - destruct (find_def r ds) as [d|]; [|exact IHl]. destruct (Bool.eqb (t_is_seq d) k); [|exact IHl].
    cbn [app]. rewrite IHl. rewrite (IH (t_items d)).
    rewrite !app_assoc. apply Permutation_app_tail. apply Permutation_app_comm.
Qed.

Section Pass.
  Variable ds : list tdef.
  Variable rank : str -> nat.
  Hypothesis rank_bound : forall y, rank y <= length ds.

  (* [appended] takes fuel; for the head of a chain every fuel from its rank upwards gives the same list.  The members are
     stated for all of these: the theorem asks for fuel length ds, and a reference is followed with one less than the including
     type had. *)
  Definition finished (y : str) (d : tdef) (t : lstate) : Prop :=
    l_refs t = [] /\
    (any_chain ds rank y -> forall f, rank y <= f -> l_members t = appended f ds (t_is_seq d) (t_items d)).

  Definition Inv (st : list lstate) : Prop :=
    length st = length ds /\
    forall y d, find_def y ds = Some d -> exists t, find_state y st = Some t /\ (t = init_state d \/ finished y d t).

  (* linking a copy of x, as parsed or finished, against a state that satisfies the invariant: the entry taken out of the
     map (key) and the types being visited (V) are of rank at least that of x, so they hide nothing x refers to *)
  Lemma link_full_any st (HInv : Inv st) :
    forall fuel x d t key V f,
      any_chain ds rank x -> find_def x ds = Some d -> t = init_state d \/ finished x d t ->
      (forall a, In a (key :: V) -> rank x <= rank a) -> rank x < fuel -> rank x <= f ->
      l_members (link_full fuel (remove_state key st) V t) = appended f ds (t_is_seq d) (t_items d).
  Proof.
    induction fuel as [|fuel IH]; intros x d t key V f Hac Hd Ht Hhid Hfuel Hf; [lia|].
    destruct Ht as [->|[Hr Hfin]]; [|rewrite link_full_norefs by exact Hr; now apply Hfin].
    destruct Hac as [x d0 Hd0 Hrefs]. rewrite Hd in Hd0. injection Hd0 as <-.
    destruct (refs_of (t_items d)) as [|r0 l0] eqn:Erefs.
    { now rewrite link_full_norefs, appended_owns. }
    (* a reference has a smaller rank, so that of x is positive, f is a successor and [appended] unfolds *)
    destruct f as [|f]; [destruct (Hrefs r0 (or_introl eq_refl)); lia|].
    rewrite link_full_members. cbn [appended]. rewrite Erefs. f_equal.
    apply flat_map_ext_in. intros r Hin. destruct (Hrefs r Hin) as [Hlt [dr [Hfr [Hk Hacr]]]].
    (* r is of smaller rank than all that is hidden, so its entry is found; by the invariant it is as parsed or finished *)
    rewrite mem_str_false by (intro Ha; specialize (Hhid r (or_intror Ha)); lia).
    rewrite find_remove_other by (intros <-; specialize (Hhid key (or_introl eq_refl)); lia).
    destruct HInv as [_ HI]. destruct (HI r dr Hfr) as [tr [-> Htr]]. rewrite Hfr, <- Hk, Bool.eqb_reflx.
    apply (IH r); try assumption; try lia.
    (* hidden from r: key, r itself, and what is visited on the way to x *)
    intros a [<-|[<-|Ha]]; [specialize (Hhid key (or_introl eq_refl)) | | specialize (Hhid a (or_intror Ha))]; lia.
  Qed.

  Lemma inv_init : Inv (map init_state ds).
  Proof. split; [apply map_length|]. intros y d Hd. exists (init_state d). split; [now apply find_init | now left]. Qed.

  Lemma step_finishes st n d :
    Inv st -> find_def n ds = Some d -> exists t, find_state n (link_step st n) = Some t /\ finished n d t.
  Proof.
    intros HInv Hd. pose proof HInv as [Hlen HI]. destruct (HI n d Hd) as [t [Hst Ht]].
    eexists. split; [exact (step_same _ _ _ Hst)|]. split; [reflexivity|]. intros Hac f Hf.
    apply (link_full_any st HInv _ n); try assumption.
    - now intros a [<-|[]].
    - rewrite Hlen. pose proof (rank_bound n). lia.
  Qed.

  Lemma inv_step st n : Inv st -> Inv (link_step st n).
  Proof.
    intros HInv. split; [rewrite step_length; apply HInv|]. intros y d Hd.
    destruct (list_eq_dec N.eq_dec n y) as [->|Hne].
    - destruct (step_finishes st y d HInv Hd) as [t [Hst Ht]]. exists t. now split; [|right].
    - rewrite step_other by exact Hne. now apply HInv.
  Qed.

  Lemma pass_finishes n d (Hd : find_def n ds = Some d) order :
    forall st, Inv st -> In n order -> exists t, find_state n (link_pass order st) = Some t /\ finished n d t.
  Proof.
    induction order as [|x l IH]; intros st HInv Hin; [destruct Hin|]. destruct Hin as [->|Hin].
    - (* finished at its turn; later turns, its own included, leave an entry without references as it is *)
      destruct (step_finishes st n d HInv Hd) as [t [Hst Ht]]. exists t. split; [|exact Ht].
      exact (pass_stable l _ n t Hst (proj1 Ht)).
    - apply IH; [now apply inv_step | exact Hin].
  Qed.

  Theorem link_pass_appended n d :
    NoDup (map t_name ds) -> any_chain ds rank n -> find_def n ds = Some d ->
    linked_members ds n = Some (appended (length ds) ds (t_is_seq d) (t_items d)).
  Proof.
    intros Hnd Hac Hd. unfold linked_members.
    destruct (pass_finishes n d Hd (descending ds) _ inv_init (descending_in ds n d Hnd Hd)) as [t [-> [_ Ht]]].
    cbn [option_map]. f_equal. now apply Ht.
  Qed.
End Pass.

(* T { COMPONENTS OF S, e }, S { a }: the pass yields [e; a], a permutation of the expansion [a; e] *)
Definition ds_front : list tdef := [mktdef nS true [Own na]; mktdef nT true [ComponentsOf nS; Own ne]].
Definition rank_front (x : str) : nat := if str_eqb x nT then 1 else 0.

Lemma ds_front_chain : any_chain ds_front rank_front nT.
Proof.
  eapply anyc_intro; [reflexivity|]. intros r [<-|[]]. split; [cbn; lia|].
  eexists. split; [reflexivity|]. split; [reflexivity|].
  eapply anyc_intro; [reflexivity|]. intros r [].
Qed.

Example permutation_applies :
  NoDup (map t_name ds_front) /\ (forall y, rank_front y <= length ds_front) /\ any_chain ds_front rank_front nT /\
  linked_members ds_front nT = Some [ne; na] /\ expanded_members ds_front nT = Some [na; ne].
Proof.
  split; [repeat constructor; cbn; intuition discriminate|].
  split; [intro y; unfold rank_front; cbn; destruct (str_eqb y nT); lia|].
  split; [exact ds_front_chain | split; vm_compute; reflexivity].
Qed.
