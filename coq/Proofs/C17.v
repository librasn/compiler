From Coq Require Import NArith Arith List Bool Lia.
Require Import RasnV.Model.Base RasnV.Model.InputPos.
Import ListNotations.

(* the invariant tying an Input to the source it was cut from *)
Definition Inv (src : list N) (i : input) : Prop :=
  offset i + length (inner i) <= length src
  /\ inner i = firstn (length (inner i)) (skipn (offset i) src)
  /\ line i = 1 + count_nl (firstn (offset i) src)
  /\ ctx_offset i <= offset i
  /\ ctx_line i = 1 + count_nl (firstn (ctx_offset i) src).

Lemma inv_init src : Inv src (init src).
Proof.
  unfold Inv, init. cbn. repeat split; try lia. rewrite firstn_all. reflexivity.
Qed.

Lemma firstn_add {A} (l : list A) a b : firstn (a + b) l = firstn a l ++ firstn b (skipn a l).
Proof.
  revert l. induction a as [|a IH]; intro l; cbn; [reflexivity|].
  destruct l as [|x l]; cbn; [destruct b; reflexivity|]. rewrite IH. reflexivity.
Qed.

Lemma skipn_add {A} (l : list A) a b : skipn (a + b) l = skipn b (skipn a l).
Proof.
  revert l. induction a as [|a IH]; intro l; cbn; [reflexivity|].
  destruct l as [|x l]; cbn; [destruct b; reflexivity|]. apply IH.
Qed.

(* Of the window w = [o, o+n) of l: a prefix of w is a prefix of the rest of l from o; the window [a, a+m) of
   w is the window [o+a, o+a+m) of l.  Stated over an equation for w, as Inv gives it, since w occurs in
   its own length there. *)
Lemma window_prefix {A} (x w : list A) n a : w = firstn n x -> a <= n -> firstn a w = firstn a x.
Proof. intros -> H. rewrite firstn_firstn, Nat.min_l by exact H. reflexivity. Qed.

Lemma window_window {A} (l w : list A) o n a m :
  w = firstn n (skipn o l) -> a + m <= n -> firstn m (skipn a w) = firstn m (skipn (o + a) l).
Proof. intros -> H. rewrite skipn_firstn_comm, firstn_firstn, skipn_add. f_equal. lia. Qed.

Lemma count_nl_app a b : count_nl (a ++ b) = count_nl a + count_nl b.
Proof. unfold count_nl. rewrite filter_app, app_length. reflexivity. Qed.

(* every field but the column; consuming nothing is the case a = 0 of the same equations *)
Lemma slice_spec i a b i' :
  slice i a b = Some i' ->
  a <= b <= length (inner i)
  /\ inner i' = firstn (b - a) (skipn a (inner i))
  /\ line i' = line i + count_nl (firstn a (inner i))
  /\ offset i' = offset i + a
  /\ ctx_line i' = ctx_line i /\ ctx_offset i' = ctx_offset i.
Proof.
  unfold slice. destruct (Nat.leb a b && Nat.leb b (length (inner i))) eqn:E; [|discriminate].
  apply andb_true_iff in E as [E1 E2]. apply Nat.leb_le in E1, E2.
  destruct (Nat.eqb_spec a 0) as [->|_]; intros [= <-]; cbn; rewrite ?Nat.add_0_r; repeat split; assumption || reflexivity.
Qed.

Lemma inv_slice src i a b i' : Inv src i -> slice i a b = Some i' -> Inv src i'.
Proof.
  intros (Hlen & Hin & Hline & Hctx & Hcl) (Hab & Ei & El & Eo & Ecl & Eco)%slice_spec.
  unfold Inv. rewrite Ei, El, Eo, Ecl, Eco, firstn_length, skipn_length, Nat.min_l by lia.
  repeat split; [lia | | | lia | exact Hcl].
  - apply (window_window src _ _ _ a (b - a) Hin). lia.
  - rewrite (window_prefix _ _ _ a Hin), firstn_add, count_nl_app by lia. lia.
Qed.

Lemma inv_reset src i : Inv src i -> Inv src (reset_context i).
Proof.
  intros (Hlen & Hin & Hline & Hctx & Hcl). unfold Inv, reset_context. cbn.
  repeat split; try lia; assumption.
Qed.

Lemma inv_run src ops : forall i i', Inv src i -> run i ops = Some i' -> Inv src i'.
Proof.
  induction ops as [|[a b|] r IH]; intros i i' H Hr; cbn in Hr.
  - injection Hr as <-. exact H.
  - destruct (slice i a b) as [i1|] eqn:E; [|discriminate]. exact (IH _ _ (inv_slice _ _ _ _ _ H E) Hr).
  - exact (IH _ _ (inv_reset _ _ H) Hr).
Qed.

Lemma inv_reachable src ops i : run (init src) ops = Some i -> Inv src i.
Proof. apply inv_run, inv_init. Qed.

Lemma inv_ctx_line src i : Inv src i -> ctx_line i <= line i.
Proof.
  intros (_ & _ & Hline & Hctx & Hcl). rewrite Hline, Hcl.
  replace (offset i) with (ctx_offset i + (offset i - ctx_offset i)) by lia.
  rewrite firstn_add, count_nl_app. lia.
Qed.

Lemma marked_line_is r n m : marked_line r n = Some m -> m = r_line r.
Proof. unfold marked_line. destruct (_ && _); [intros [= <-]; reflexivity | discriminate]. Qed.
