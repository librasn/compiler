(* The range path of Model/PerVisible.v on integer element sets, against Spec/Subtype.v.  Exactness is the one fact: the
   operator step computes the by-the-book combination (combine_pure); never excluding, purity, the markers and termination
   come out of the same case analysis and of one induction over the set (fold_pure).  range_of_constraint is then the fold
   of the governing set plus flags that leave the bounds alone, whatever the constraint (range_of_constraint_core). *)
From Coq Require Import ZArith List Bool Lia.
Require Import RasnV.Model.Base RasnV.Model.PerVisible RasnV.Spec.Subtype.
Import ListNotations.
Local Open Scope Z_scope.

Lemma bind_ok {A B} (m : res A) (f : A -> res B) b : bind m f = Ok b -> exists a, m = Ok a /\ f a = Ok b.
Proof. destruct m; try discriminate. eauto. Qed.

(* the by-the-book interval as a set of integers: [in_result] and [in_range] are instances *)
Definition in_piv (p : piv) (z : Z) : Prop :=
  match p with NV => True | IV lo hi => ge_opt lo z /\ le_opt z hi end.

Lemma in_result_piv r z : in_result r z <-> in_piv (to_piv r) z.
Proof. destruct r as [[[v| |] x|lo hi x| | | |]|]; cbn; try tauto. lia. Qed.

Lemma sem_elem_piv rho e z : sem_elem rho e z -> in_piv (pv_elem e) z.
Proof. destruct e as [[v| |] x|lo hi x| | | |]; cbn; try tauto. lia. Qed.

(* X.691 10.3.21 never excludes: hull for unions, meet for intersections, the base for EXCEPT *)
Lemma pv_combine_in o a b z :
  match o with
  | Union => in_piv a z \/ in_piv b z
  | Inter => in_piv a z /\ in_piv b z
  | Except => in_piv a z
  end -> in_piv (pv_combine o a b) z.
Proof.
  destruct o, a as [|[l1|] [h1|]], b as [|[l2|] [h2|]]; cbn; lia.
Qed.

Lemma in_piv_nonempty p z : in_piv p z -> nonempty_iv p = true.
Proof. destruct p as [|[l|] [h|]]; cbn; try reflexivity. intro. apply Z.leb_le. lia. Qed.

(* what the fold hands on between operators: nothing, or a pure element *)
Definition pure_res (r : option elem) : bool := match r with Some e => pure_elem e | None => true end.

Definition res_x (r : option elem) : bool := match r with Some e => elem_x e | None => false end.

(* the shapes of pure elements, with the integer bounds of a range as the model writes them *)
Inductive pure_shape : elem -> Prop :=
| PS_not : pure_shape NotPV
| PS_single v x : pure_shape (Single (VInt v) x)
| PS_range l h x : pure_shape (Range (option_map VInt l) (option_map VInt h) x).

Lemma pure_bound_int o : pure_bound o = true -> o = option_map VInt (as_int o).
Proof. destruct o as [[]|]; try discriminate; reflexivity. Qed.

Lemma pure_elem_shape e : pure_elem e = true -> pure_shape e.
Proof.
  destruct e as [[] x|lo hi x| | | |]; try discriminate; try constructor.
  cbn. intro H. apply andb_true_iff in H as [Hl Hh]. rewrite (pure_bound_int lo Hl), (pure_bound_int hi Hh). constructor.
Qed.

(* On integer elements and without a character set (None true, as the range conversions call the fold) the operator step is
   the by-the-book combination: on integer bounds cmp_opt with vmax / vmin is meet_lo / meet_hi, hull_opt with vmin / vmax is
   hull_lo / hull_hi.  One exception: a single value intersected with a range is kept as it is even when it lies outside the
   range; the by-the-book meet is empty then, hence the condition for Inter.  The same case analysis gives what the induction
   over a set needs besides: the result is pure again, unmarked if both operands were, and the only failure is Err (no
   unreachable!() arm is reached). *)
Lemma combine_pure base o fo :
  pure_elem base = true -> pure_res fo = true ->
  match combine base o fo None true with
  | Ok r => pure_res r = true
            /\ (elem_x base = false -> res_x fo = false -> res_x r = false)
            /\ (match o with Inter => nonempty_iv (pv_combine Inter (pv_elem base) (to_piv fo)) = true | _ => True end ->
                to_piv r = pv_combine o (pv_elem base) (to_piv fo))
  | Err => True
  | _ => False
  end.
Proof.
  intros Hb Hf.
  destruct (pure_elem_shape base Hb) as [|v x|[l|] [h|] x];
    (destruct fo as [f|]; [destruct (pure_elem_shape f Hf) as [|v' x'|[l'|] [h'|] x']|]); destruct o; cbn.
  (* left undecided: whether two single values are equal, and the markers *)
  all: repeat (match goal with |- context [if ?c then _ else _] => destruct c eqn:? end; cbn); try exact I.
  all: split; [reflexivity | split; [intros; subst; reflexivity || discriminate | intro Hne]]; try reflexivity.
  (* what is left: a single value against a non-empty meet, and min / max with their arguments the other way round *)
  all: try apply Z.leb_le in Hne; try match goal with H : (_ =? _) = true |- _ => apply Z.eqb_eq in H end.
  all: f_equal; f_equal; lia.
Qed.

(* never excluding follows from exactness: an empty by-the-book intersection has no member to exclude *)
Lemma combine_sound base o fo r z :
  pure_elem base = true -> pure_res fo = true -> combine base o fo None true = Ok r ->
  match o with
  | Union => in_piv (pv_elem base) z \/ in_piv (to_piv fo) z
  | Inter => in_piv (pv_elem base) z /\ in_piv (to_piv fo) z
  | Except => in_piv (pv_elem base) z
  end -> in_result r z.
Proof.
  intros Hb Hf Hc Hz. pose proof (combine_pure base o fo Hb Hf) as H. rewrite Hc in H. destruct H as (_ & _ & He).
  apply pv_combine_in in Hz. apply in_result_piv.
  rewrite He; [exact Hz|]. destruct o; try exact I. exact (in_piv_nonempty _ _ Hz).
Qed.

Lemma dispatch_pure recur base o fo cs rc :
  pure_elem base = true -> pure_res fo = true ->
  dispatch recur base o fo cs rc = combine base o fo cs rc.
Proof.
  intros Hb Hf. destruct (pure_elem_shape base Hb); (destruct fo as [f|]; [destruct (pure_elem_shape f Hf)|]);
    destruct o; reflexivity.
Qed.

(* what a folded result has to do with the set it came from: it excludes nothing, it is the by-the-book effective
   constraint when no intersection inside is empty, and it carries no marker if no element did *)
Definition fold_spec (s : eos) (r : option elem) : Prop :=
  (forall rho z, sem_eos rho s z -> in_result r z)
  /\ (nonempty_inters s = true -> to_piv r = pv_eos s)
  /\ (no_elem_marker s = true -> res_x r = false).

Lemma fold_spec_el e : fold_spec (El e) (Some e).
Proof.
  split; [|split].
  - intros rho z H. apply in_result_piv, (sem_elem_piv rho), H.
  - reflexivity.
  - cbn. apply negb_true_iff.
Qed.

(* the operand position drops an element that is not PER-visible *)
Lemma fold_spec_operand e : fold_spec (El e) (if elem_pv e then Some e else None).
Proof.
  destruct (elem_pv e) eqn:E; [apply fold_spec_el|].
  split; [|split].
  - intros rho z _. exact I.
  - intros _. destruct e; try reflexivity; discriminate E.
  - reflexivity.
Qed.

Lemma fold_spec_op recur b o s fo :
  pure_elem b = true -> pure_res fo = true -> fold_spec s fo ->
  match dispatch recur b o fo None true with
  | Ok r => pure_res r = true /\ fold_spec (SetOp b o s) r
  | Err => True
  | _ => False
  end.
Proof.
  intros Hb Hf (Hs & He & Hm). rewrite dispatch_pure by assumption.
  pose proof (combine_pure b o fo Hb Hf) as H.
  destruct (combine b o fo None true) as [r| | |] eqn:Hc; try exact H.
  destruct H as (Hp & Hm' & He'). split; [exact Hp|]. repeat split.
  - intros rho z Hz. apply (combine_sound b o fo r z Hb Hf Hc).
    pose proof (sem_elem_piv rho b z). pose proof (in_result_piv fo z). pose proof (Hs rho z). cbn [sem_eos] in Hz. destruct o; tauto.
  - cbn [nonempty_inters pv_eos]. intro H. apply andb_true_iff in H as [H1 H2].
    rewrite <- (He H1). apply He'. destruct o; try exact I. rewrite (He H1). exact H2.
  - cbn [no_elem_marker]. intro H. apply andb_true_iff in H as [H1 H2].
    apply Hm'; [apply negb_true_iff, H1 | exact (Hm H2)].
Qed.

(* on pure sets the fold is a structural recursion; it runs out of fuel only if given no more than the size of the operand *)
Lemma fold_pure : forall s fuel b o,
  pure_elem b = true -> pure_eos s = true ->
  match fold fuel b o s None true with
  | Ok r => pure_res r = true /\ fold_spec (SetOp b o s) r
  | Err => True
  | Panic => False
  | OutOfFuel => (fuel <= eos_size s)%nat
  end.
Proof.
  induction s as [e | b2 o2 s IH]; intros [|fuel] b o Hb Hs; cbn [fold bind]; try apply Nat.le_0_l.
  - assert (Hfo : pure_res (if elem_pv e then Some e else None) = true) by (destruct (elem_pv e); [exact Hs | reflexivity]).
    pose proof (fold_spec_op (fun b o' r => fold fuel b o' r None true) b o (El e) _ Hb Hfo (fold_spec_operand e)) as H.
    destruct (dispatch _ b o _ None true); tauto.
  - cbn [pure_eos] in Hs. apply andb_true_iff in Hs as [Hb2 Hs].
    specialize (IH fuel b2 o2 Hb2 Hs).
    destruct (fold fuel b2 o2 s None true) as [fo| | |]; cbn [bind eos_size]; try tauto; [|lia].
    destruct IH as [Hfo Hspec].
    pose proof (fold_spec_op (fun b o' r => fold fuel b o' r None true) b o _ fo Hb Hfo Hspec) as H.
    destruct (dispatch _ b o _ None true); tauto.
Qed.

Lemma fold_eos_spec fuel s r :
  pure_eos s = true -> fold_eos fuel s None true = Ok r -> pure_res r = true /\ fold_spec s r.
Proof.
  destruct s as [e | b o s]; cbn [fold_eos pure_eos]; intros Hp Hf.
  - injection Hf as <-. split; [exact Hp | apply fold_spec_el].
  - apply andb_true_iff in Hp as [Hb Hs]. pose proof (fold_pure s fuel b o Hb Hs) as H. rewrite Hf in H. exact H.
Qed.

Definition bounded (r : range) : bool := match rmin r, rmax r with None, None => false | _, _ => true end.

Lemma range_of_pure_res fuel r rg :
  pure_res r = true -> range_of_elem fuel r = Ok rg ->
  (forall z, in_result r z <-> in_range rg z) /\ rext rg = res_x r.
Proof.
  destruct fuel as [|fuel]; [discriminate|]. intros Hp Hr.
  destruct r as [e|]; [destruct (pure_elem_shape e Hp)|]; cbn in Hr; try discriminate Hr; injection Hr as <-;
    (split; [|reflexivity]); intro z; unfold in_range; cbn; try tauto. unfold ge_opt, le_opt. lia.
Qed.

(* a set, folded and converted: the step that range_of_constraint takes for a whole constraint and range_of_elem for
   the inside of SIZE *)
Lemma set_range_pure fuel s v :
  pure_eos s = true -> bind (fold_eos fuel s None true) (range_of_elem fuel) = Ok v ->
  (forall rho z, sem_eos rho s z -> in_range v z) /\ (no_elem_marker s = true -> rext v = false).
Proof.
  intros Hp H. apply bind_ok in H as (r & Hf & Hr).
  destruct (fold_eos_spec fuel s r Hp Hf) as (Hpr & Hs & _ & Hm).
  destruct (range_of_pure_res fuel r v Hpr Hr) as [Hin Hx].
  split; [intros rho z Hz; apply Hin, (Hs rho z Hz) | intro Hn; rewrite Hx; exact (Hm Hn)].
Qed.

(* the set a constraint takes its bounds from *)
Definition gov (c : constraint) : eos := match cset c with El (Size inner) => inner | s => s end.

Definition constraint_sem rho (c : constraint) (z : Z) : Prop :=
  match cset c with
  | El (Size inner) => sem_eos rho inner z          (* z is the length *)
  | s => sem_eos rho s z
  end.

Definition constraint_pure (c : constraint) : bool :=
  match cset c with
  | El (Size inner) => pure_eos inner
  | s => pure_eos s
  end.

Definition constraint_unmarked_elems (c : constraint) : bool :=
  match cset c with
  | El (Size inner) => no_elem_marker inner
  | s => no_elem_marker s
  end.

Lemma constraint_sem_gov rho c z : constraint_sem rho c z = sem_eos rho (gov c) z.
Proof. unfold constraint_sem, gov. destruct (cset c) as [[]|]; reflexivity. Qed.
Lemma constraint_pure_gov c : constraint_pure c = pure_eos (gov c).
Proof. unfold constraint_pure, gov. destruct (cset c) as [[]|]; reflexivity. Qed.
Lemma constraint_unmarked_gov c : constraint_unmarked_elems c = no_elem_marker (gov c).
Proof. unfold constraint_unmarked_elems, gov. destruct (cset c) as [[]|]; reflexivity. Qed.

Lemma mark_ext_spec t r :
  mark_ext t r = {| rmin := rmin r; rmax := rmax r; rext := rext r || t && bounded r; rsize := rsize r |}.
Proof.
  unfold mark_ext. fold (bounded r). destruct r, (t && bounded _); cbn; rewrite ?orb_true_r, ?orb_false_r; reflexivity.
Qed.

(* range_of_constraint, whatever the constraint: the governing set is folded and converted; on top of that come only
   set_size and extension marks, which leave the bounds alone and flag a bounded result *)
Lemma range_of_constraint_core fuel c rg :
  range_of_constraint fuel c = Ok rg ->
  exists f v, bind (fold_eos f (gov c) None true) (range_of_elem f) = Ok v /\
    rmin rg = rmin v /\ rmax rg = rmax v /\
    rext rg = rext v || (match gov c with SetOp _ _ r => trailing_marker r | El _ => false end || cext c) && bounded v.
Proof.
  unfold range_of_constraint, gov. intro H. apply bind_ok in H as (pv & Hpv & H).
  change (Ok (mark_ext (cext c) pv) = Ok rg) in H. injection H as <-.
  destruct (cset c) as [e | b o r].
  - destruct e as [| |inner| | |]; try (exists fuel, pv; rewrite mark_ext_spec; auto; fail).
    destruct fuel as [|fuel]; [discriminate Hpv|]. cbn [range_of_elem] in Hpv. destruct inner as [e' | b o r].
    + apply bind_ok in Hpv as (v & Hv & Hpv). injection Hpv as <-. exists fuel, v. rewrite mark_ext_spec. auto.
    + apply bind_ok in Hpv as (fe & Hfe & Hpv). apply bind_ok in Hpv as (v & Hv & Hpv). injection Hpv as <-.
      exists fuel, v. cbn [fold_eos]. rewrite Hfe, !mark_ext_spec. split; [exact Hv|]. cbn.
      rewrite andb_orb_distrib_l, orb_assoc. auto.
  - apply bind_ok in Hpv as (fe & Hfe & Hpv). apply bind_ok in Hpv as (v & Hv & Hpv). injection Hpv as <-.
    exists fuel, v. cbn [fold_eos]. rewrite Hfe, !mark_ext_spec. split; [exact Hv|].
    destruct (set_has_size b r); cbn; rewrite andb_orb_distrib_l, orb_assoc; auto.
Qed.

Lemma set_size_bounded r : bounded (set_size r) = bounded r. Proof. reflexivity. Qed.

Lemma range_of_constraint_never_excludes rho fuel c rg z :
  constraint_pure c = true -> range_of_constraint fuel c = Ok rg -> constraint_sem rho c z -> in_range rg z.
Proof.
  rewrite constraint_pure_gov, constraint_sem_gov. intros Hp Hr Hs.
  destruct (range_of_constraint_core fuel c rg Hr) as (f & v & Hv & E1 & E2 & _).
  unfold in_range. rewrite E1, E2. exact (proj1 (set_range_pure f (gov c) v Hp Hv) rho z Hs).
Qed.

Lemma no_marker_trailing r : no_elem_marker r = true -> trailing_marker r = false.
Proof.
  induction r as [e | b o r IH]; cbn [no_elem_marker trailing_marker].
  - intro H. apply negb_true_iff in H. destruct e; cbn in H |- *; auto.
  - intro H. apply andb_true_iff in H as [_ H]. exact (IH H).
Qed.

(* unmarked elements: the flag comes from the outer marker alone, and only a bounded result is flagged *)
Lemma constraint_extensible_iff fuel c rg :
  constraint_pure c = true -> constraint_unmarked_elems c = true ->
  range_of_constraint fuel c = Ok rg -> rext rg = cext c && bounded rg.
Proof.
  rewrite constraint_pure_gov, constraint_unmarked_gov. intros Hp Hn Hr.
  destruct (range_of_constraint_core fuel c rg Hr) as (f & v & Hv & E1 & E2 & ->).
  unfold bounded. rewrite E1, E2, (proj2 (set_range_pure f _ v Hp Hv) Hn).
  destruct (gov c) as [e | b o r]; [reflexivity|].
  cbn [no_elem_marker] in Hn. apply andb_true_iff in Hn as [_ Hn]. rewrite (no_marker_trailing r Hn). reflexivity.
Qed.

Lemma add_assign_in a b z : in_range a z -> in_range b z -> in_range (add_assign a b) z.
Proof.
  unfold in_range, add_assign, ge_opt, le_opt. cbn.
  destruct (rmin a), (rmin b), (rmax a), (rmax b); cbn; intros [? ?] [? ?]; split; try lia; exact I.
Qed.

Lemma serial_never_excludes rho fuel : forall cs acc rg z,
  Forall (fun c => constraint_pure c = true /\ constraint_sem rho c z) cs ->
  in_range acc z ->
  per_visible_range_from fuel acc cs = Ok rg -> in_range rg z.
Proof.
  induction cs as [|c cs IH]; intros acc rg z Hall Hacc Hr; cbn [per_visible_range_from] in Hr.
  - injection Hr as <-. exact Hacc.
  - inversion Hall as [|c' cs' [Hp Hs] Hrest]; subst.
    destruct (eos_pv (cset c)); [|exact (IH acc rg z Hrest Hacc Hr)].
    apply bind_ok in Hr as (rc & Erc & Hr).
    apply (IH (add_assign acc rc) rg z Hrest); [|exact Hr].
    apply add_assign_in; [exact Hacc|].
    exact (range_of_constraint_never_excludes rho fuel c rc z Hp Erc Hs).
Qed.
