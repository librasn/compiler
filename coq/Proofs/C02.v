From Coq Require Import NArith List Lia.
Require Import RasnV.Model.Base RasnV.Model.Names RasnV.Model.Components RasnV.Proofs.Indexed.
Import ListNotations.

Lemma only_members_map l : only_members (map CMember l) = l.
Proof. induction l as [|m r IH]; cbn; [reflexivity | now rewrite IH]. Qed.

Lemma only_refs_map l : only_refs (map CMember l) = [].
Proof. induction l as [|m r IH]; cbn; [reflexivity | exact IH]. Qed.

Theorem assemble_plain r marker a :
  assemble (map CMember r) marker (map CMember a) = mkseq (r ++ a) [] (if marker then Some (length r) else None).
Proof.
  unfold assemble. rewrite <- map_app, !only_members_map, only_refs_map. reflexivity.
Qed.

Lemma only_members_app a b : only_members (a ++ b) = only_members a ++ only_members b.
Proof. induction a as [|[m|c] r IH]; cbn; [reflexivity | now rewrite IH | exact IH]. Qed.

(* what one member must become *)
Definition spec_field (parent : str) (addition : bool) (m : member) : field :=
  let t := written_type (m_ty m) (m_name m) parent (m_rec m) in
  mkfield (snake (m_name m))
          (match m_opt m with
           | Optional => s_option_l ++ t ++ s_gt
           | _ => if is_group (m_name m) then s_option_l ++ t ++ s_gt else t
           end)
          (match m_opt m with Default => Some (default_method_name parent (m_name m)) | _ => None end)
          (if addition then (if is_group (m_name m) then 2%N else 1%N) else 0%N).

Definition spec_variant (parent : str) (addition : bool) (m : member) : field :=
  mkfield (enum_ident (m_name m)) (written_type (m_ty m) (m_name m) parent (m_rec m)) None
          (if addition then (if is_group (m_name m) then 2%N else 1%N) else 0%N).

(* the running index only decides root / addition *)
Lemma ext_code_is e i name :
  ext_code e i name = if is_addition e i then (if is_group name then 2%N else 1%N) else 0%N.
Proof. destruct e; reflexivity. Qed.

Lemma format_from_imap parent e ms : forall i,
  format_from parent e i ms = imap (fun j => spec_field parent (is_addition e j)) i ms.
Proof.
  induction ms as [|m r IH]; intro i; cbn [format_from imap]; [reflexivity|].
  unfold format_member, spec_field. now rewrite IH, ext_code_is.
Qed.

Lemma options_from_imap parent e ms : forall i,
  options_from parent e i ms = imap (fun j => spec_variant parent (is_addition e j)) i ms.
Proof.
  induction ms as [|m r IH]; intro i; cbn [options_from imap]; [reflexivity|].
  unfold format_option, spec_variant. now rewrite IH, ext_code_is.
Qed.

Theorem fields_of_assembled_any parent root marker adds :
  fields_of parent (assemble root marker adds) =
  map (spec_field parent false) (only_members root) ++ map (spec_field parent marker) (only_members adds).
Proof.
  unfold assemble, fields_of. cbn [members extensible].
  rewrite format_from_imap, only_members_app. apply imap_root_adds.
Qed.

Theorem variants_of_assembled_any parent root marker adds :
  variants_of parent (assemble root marker adds) =
  map (spec_variant parent false) (only_members root) ++ map (spec_variant parent marker) (only_members adds).
Proof.
  unfold assemble, variants_of. cbn [members extensible].
  rewrite options_from_imap, only_members_app. apply imap_root_adds.
Qed.

Lemma not_self_wrapped (t : str) : t <> s_option_l ++ t ++ s_gt.
Proof. intro H. apply (f_equal (@length _)) in H. rewrite !app_length in H. cbn in H. lia. Qed.

(* Option<_> exactly for OPTIONAL components (extension groups aside); the right disjunct never holds *)
Lemma spec_field_option parent add m :
  is_group (m_name m) = false ->
  (f_type (spec_field parent add m) = s_option_l ++ written_type (m_ty m) (m_name m) parent (m_rec m) ++ s_gt <-> m_opt m = Optional)
  \/ written_type (m_ty m) (m_name m) parent (m_rec m) = s_option_l ++ written_type (m_ty m) (m_name m) parent (m_rec m) ++ s_gt.
Proof.
  intro Hg. left. unfold spec_field. cbn [f_type]. rewrite Hg.
  destruct (m_opt m); split; intro H; try reflexivity; try discriminate; destruct (not_self_wrapped _ H).
Qed.

(* the members of C02_components_of_index_example *)
Definition mA : member := mkmember [97]%N (KPlain [98;111;111;108]%N) Required false.
Definition mB : member := mkmember [98]%N (KPlain [98;111;111;108]%N) Required false.
