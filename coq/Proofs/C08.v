From Coq Require Import NArith Arith List Bool Lia.
Require Import RasnV.Model.Base RasnV.Model.InputPos RasnV.Model.Excerpt.
Require RasnV.Proofs.C17.
Import ListNotations.

Lemma slice_ok_end s : slice_ok s (length s) = true.
Proof.
  unfold slice_ok, is_boundary. rewrite Nat.leb_refl, (proj2 (nth_error_None s (length s))) by lia.
  apply Nat.eqb_refl.
Qed.

Lemma ceil_from_ok : forall fuel s i,
  length s - i < fuel -> slice_ok s (ceil_from fuel s i) = true.
Proof.
  induction fuel as [|f IH]; intros s i H; [lia|]. cbn [ceil_from].
  destruct (Nat.leb (length s) i) eqn:E; [apply slice_ok_end|]. apply Nat.leb_gt in E.
  destruct (is_boundary s i) eqn:B; [|apply IH; lia].
  unfold slice_ok. rewrite B, andb_true_r. apply Nat.leb_le. lia.
Qed.

Lemma ceil_ok s i : slice_ok s (ceil_char_boundary s i) = true.
Proof. apply ceil_from_ok. lia. Qed.

(* the excerpt scan finds a byte that follows a line break: its predecessor is '\n', a boundary *)
Lemma find_unindented_spec : forall s idx prev k,
  find_unindented s idx prev = Some k ->
  (prev = true /\ k = idx) \/ (idx < k /\ nth_error s (k - idx - 1) = Some 10%N).
Proof.
  induction s as [|b r IH]; intros idx prev k H; cbn in H; [discriminate|].
  destruct (prev && is_alnum_ascii b) eqn:E.
  - injection H as <-. apply andb_true_iff in E as [E _]. left. auto.
  - destruct (IH (S idx) (N.eqb b 10) k H) as [[Hp Hk]|[Hlt Hn]].
    + right. subst k. apply N.eqb_eq in Hp. subst b. split; [lia|].
      replace (S idx - idx - 1) with 0 by lia. reflexivity.
    + right. split; [lia|].
      replace (k - idx - 1) with (S (k - S idx - 1)) by lia. exact Hn.
Qed.

Lemma nth_error_skipn {A} (l : list A) a i : nth_error (skipn a l) i = nth_error l (a + i).
Proof.
  revert l. induction a as [|a IH]; intro l; [reflexivity|]. destruct l as [|x l]; [destruct i; reflexivity|]. apply IH.
Qed.

Lemma until_next_unindented_ok input a f : snd (until_next_unindented input a f) = true.
Proof.
  unfold until_next_unindented.
  pose proof (ceil_ok input a) as Hc. set (c := ceil_char_boundary input a) in *.
  destruct (find_unindented (skipn c input) 0 false) as [idx|] eqn:E; cbn [snd].
  - rewrite Hc. cbn [andb].
    destruct (find_unindented_spec _ _ _ _ E) as [[Hp _]|[Hlt Hn]]; [discriminate|].
    rewrite Nat.sub_0_r in Hn. rewrite nth_error_skipn in Hn.
    unfold slice_ok. replace (idx - 1 + c) with (c + (idx - 1)) by lia.
    assert (Hlen : c + (idx - 1) < length input) by (apply nth_error_Some; congruence).
    apply andb_true_iff. split; [apply Nat.leb_le; lia|].
    unfold is_boundary. rewrite Hn. reflexivity.
  - rewrite Hc, (ceil_ok input f). reflexivity.
Qed.

(* That the context start is a character boundary is assumed: contexts are reset only between tokens. *)
Lemma inv_contextualize src i :
  RasnV.Proofs.C17.Inv src i ->
  is_boundary src (ctx_offset i) = true ->
  contextualize_slices src (report_of i) = true.
Proof.
  intros (Hlen & _ & _ & Hctx & _) Hb. unfold contextualize_slices, slice_ok. cbn [report_of r_ctx_offset r_offset].
  rewrite until_next_unindented_ok, Hb, !andb_true_r.
  apply andb_true_iff. split; apply Nat.leb_le; lia.
Qed.
