From Coq Require Import ZArith List Bool Lia ZifyBool.
Require Import RasnV.Model.Base RasnV.Gen.T06 RasnV.Gen.T07 RasnV.Model.IntWidth RasnV.Spec.IntFits.
Import ListNotations.
Local Open Scope Z_scope.

Lemma ty_range_fixed t : t <> Unbounded -> exists a b, ty_range t = Some (a, b).
Proof. destruct t; cbn; eauto; congruence. Qed.

Lemma ty_range_i128 t a b : ty_range t = Some (a, b) -> i128_min < a /\ b < i128_max.
Proof. destruct t; intros [= <- <-]; split; reflexivity. Qed.

Lemma fitsb_fits t z : fitsb t z = true <-> fits t z.
Proof.
  unfold fitsb, fits. destruct (ty_range t) as [[lo hi]|]; [|tauto].
  rewrite andb_true_iff, !Z.leb_le. reflexivity.
Qed.

Lemma fits_range t z : (forall a b, ty_range t = Some (a, b) -> a <= z <= b) -> fits t z.
Proof. unfold fits. destruct (ty_range t) as [[a b]|]; [auto | intros _; exact I]. Qed.

(* Of each regenerated ladder one fact is used: a fixed-width answer is given only without a marker, and then its range
   contains the interval asked about.  The script does not look at the shape of the ladder: it takes every guard both ways
   and leaves the comparisons to lia (which reads the boolean tests through ZifyBool), so a reordered or regrouped ladder
   that still has the property still passes. *)

Ltac ladder :=
  repeat match goal with
         | |- context [if ?c then _ else _] => destruct c eqn:?
         end;
  cbn [ty_range]; intros [= <- <-]; lia.

Lemma constraints_ladder_range lo hi ext a b :
  ty_range (integer_constraints_ladder lo hi ext) = Some (a, b) -> ext = false /\ a <= lo <= hi /\ hi <= b.
Proof. unfold integer_constraints_ladder. ladder. Qed.

Lemma token_ladder_range lo hi ext a b :
  ty_range (int_type_token_ladder lo hi ext) = Some (a, b) -> ext = false /\ a <= lo /\ hi <= b.
Proof. unfold int_type_token_ladder. ladder. Qed.

Lemma constraints_ladder_sound lo hi ext z :
  ext = true \/ hi < lo \/ lo <= z <= hi -> fits (integer_constraints_ladder lo hi ext) z.
Proof. intro H. apply fits_range. intros a b E%constraints_ladder_range. lia. Qed.

Lemma token_sound omin omax ext z :
  ge_opt omin z -> le_opt z omax -> fits (int_type_token omin omax ext) z.
Proof.
  unfold int_type_token. destruct omin as [lo|], omax as [hi|]; cbn [ge_opt le_opt]; intros; try exact I.
  apply fits_range. intros a b E%token_ladder_range. lia.
Qed.

Lemma token_fixed_only_if omin omax ext :
  int_type_token omin omax ext <> Unbounded ->
  ext = false /\ exists lo hi, omin = Some lo /\ omax = Some hi.
Proof.
  unfold int_type_token. destruct omin as [lo|], omax as [hi|]; try congruence.
  intros (a & b & E%token_ladder_range)%ty_range_fixed. split; [apply E | eauto].
Qed.

(* [integer_constraints] asks the ladder about the interval clamped to i128, with MIN and MAX turned into the opposite end
   (so that they give an empty interval); the range of every fixed type lies strictly inside i128.  The two constants stay
   folded: lia needs no more of them than that and their order. *)
Lemma integer_constraints_range c a b :
  ty_range (integer_constraints c) = Some (a, b) ->
  finite_nonext c /\ forall z, permits c z -> a <= z <= b.
Proof.
  intro E. pose proof (ty_range_i128 _ _ _ E) as B. assert (i128_min < i128_max) by reflexivity.
  destruct c as [lo hi ext sext | v ext sext | e]; apply constraints_ladder_range in E.
  - destruct lo, hi; try lia. destruct ext, sext; try lia.
    cbn [finite_nonext permits ge_opt le_opt]. split; [exact I | lia].
  - destruct ext, sext; try lia. cbn [finite_nonext permits]. split; [exact I | lia].
  - lia.
Qed.

Lemma integer_constraints_sound c z : permits c z -> fits (integer_constraints c) z.
Proof.
  intro Hp. apply fits_range. intros a b E. now apply (integer_constraints_range c a b E).
Qed.

Lemma integer_constraints_fixed_only_if c :
  integer_constraints c <> Unbounded -> finite_nonext c.
Proof.
  intros (a & b & E)%ty_range_fixed. now apply (integer_constraints_range c a b E).
Qed.

Lemma max_restrictive_either a b : max_restrictive a b = a \/ max_restrictive a b = b.
Proof. destruct a, b; cbn; auto. Qed.

(* the fold of integer_type_of returns its start value or the width of one of the constraints *)
Lemma fold_max_restrictive cs acc :
  let r := fold_left (fun acc c => max_restrictive (integer_constraints c) acc) cs acc in
  r = acc \/ exists c, In c cs /\ r = integer_constraints c.
Proof.
  revert acc. induction cs as [|c cs IH]; cbn [fold_left]; intro acc; [now left|].
  destruct (IH (max_restrictive (integer_constraints c) acc)) as [E|(c' & Hin & E)].
  - rewrite E. destruct (max_restrictive_either (integer_constraints c) acc) as [->| ->]; [right | now left].
    exists c. split; [now left | reflexivity].
  - right. exists c'. split; [now right | exact E].
Qed.

Lemma int_type_sound cs z : Forall (fun c => permits c z) cs -> fits (int_type cs) z.
Proof.
  intro H. unfold int_type. destruct (last_extensible cs); [exact I|].
  destruct (fold_max_restrictive cs Unbounded) as [-> | (c & Hin & ->)]; [exact I|].
  apply integer_constraints_sound. rewrite Forall_forall in H. now apply H.
Qed.

Lemma int_type_fixed_only_if cs : int_type cs <> Unbounded -> Exists finite_nonext cs /\ last_extensible cs = false.
Proof.
  unfold int_type. destruct (last_extensible cs); [congruence|]. intro H. split; [|reflexivity].
  destruct (fold_max_restrictive cs Unbounded) as [E | (c & Hin & E)]; [congruence|].
  apply Exists_exists. exists c. split; [exact Hin|]. apply integer_constraints_fixed_only_if. now rewrite <- E.
Qed.
