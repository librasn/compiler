(* The value literals of Model/Values.v against Spec/ValSpec.v: the quoted bit strings, octets and bits, named bits,
   OBJECT IDENTIFIER arcs; the cstring literal is in C07Lines.v.  The generated tables hex_to_bools and well_known are
   only evaluated, at the entries of the specification's own tables; their shape is never looked at. *)
From Coq Require Import ZArith NArith List Bool Lia.
Require Import RasnV.Model.Base RasnV.Model.Scan RasnV.Spec.Trivia RasnV.Proofs.C13 RasnV.Gen.T04 RasnV.Gen.T05 RasnV.Model.Values RasnV.Spec.ValSpec.
Import ListNotations.

Lemma nth_map_in {A B} (f : A -> B) l i d e : (i < length l)%nat -> nth i (map f l) e = f (nth i l d).
Proof. intro H. rewrite (nth_indep _ e (f d)) by now rewrite map_length. apply map_nth. Qed.

Lemma firstn_app_exact {A} (a b : list A) : firstn (length a) (a ++ b) = a.
Proof. rewrite firstn_app, Nat.sub_diag, firstn_all. apply app_nil_r. Qed.

Lemma skipn_app_exact {A} (a b : list A) : skipn (length a) (a ++ b) = b.
Proof. now rewrite skipn_app, Nat.sub_diag, skipn_all. Qed.

Lemma bits_be_length w n : length (bits_be w n) = w.
Proof. unfold bits_be. now rewrite map_length, seq_length. Qed.

Lemma bits_be_S w n : bits_be (S w) n = N.testbit n (N.of_nat w) :: bits_be w n.
Proof.
  unfold bits_be. cbn [seq map]. rewrite <- seq_shift, map_map. f_equal; [f_equal; f_equal; lia|].
  apply map_ext. intro i. do 2 f_equal. lia.
Qed.

Lemma bits_be_ext w n m :
  (forall j, (j < N.of_nat w)%N -> N.testbit n j = N.testbit m j) -> bits_be w n = bits_be w m.
Proof. intro H. apply map_ext_in. intros i Hi. apply in_seq in Hi. apply H. lia. Qed.

Lemma bits_be_mod w n : bits_be w (n mod 2 ^ N.of_nat w) = bits_be w n.
Proof. apply bits_be_ext. intros j Hj. now apply N.mod_pow2_bits_low. Qed.

Lemma bits_be_surj c : exists n, bits_be (length c) n = c.
Proof.
  induction c as [|b c [n IH]]; [now exists 0%N|].
  exists (if b then N.setbit n (N.of_nat (length c)) else N.clearbit n (N.of_nat (length c))).
  cbn [length]. rewrite bits_be_S. f_equal.
  - destruct b; [apply N.setbit_eq | apply N.clearbit_eq].
  - etransitivity; [|exact IH]. apply bits_be_ext. intros j Hj.
    destruct b; [apply N.setbit_neq | apply N.clearbit_neq]; lia.
Qed.

Definition hexdigits : list N := map N.of_nat (seq 48 10 ++ seq 65 6).

Lemma is_hexdigit_In c : is_hexdigit c = true -> In c hexdigits.
Proof.
  unfold is_hexdigit, hexdigits. intro H. rewrite <- (N2Nat.id c). apply in_map, in_or_app.
  apply orb_true_iff in H as [H|H]; apply andb_true_iff in H as [H1 H2]; apply N.leb_le in H1, H2;
    [left | right]; apply in_seq; lia.
Qed.

Lemma hex_to_bools_spec c : is_hexdigit c = true -> hex_to_bools c = bits_be 4 (hexval c).
Proof.
  intro H. apply is_hexdigit_In in H. revert c H. apply Forall_forall.
  (* the generated ladder, evaluated at each of the sixteen digits *)
  repeat constructor.
Qed.

Lemma hstring_spec ds :
  forallb is_hexdigit ds = true ->
  hstring_bits ds = flat_map (fun c => bits_be 4 (hexval c)) ds.
Proof.
  intro H. apply flat_map_ext_in. intros c Hc. apply hex_to_bools_spec. exact (proj1 (forallb_forall _ _) H c Hc).
Qed.

Lemma hstring_length ds : forallb is_hexdigit ds = true -> length (hstring_bits ds) = 4 * length ds.
Proof.
  intro H. rewrite (hstring_spec ds H). clear H.
  induction ds as [|c ds IH]; cbn [flat_map length]; [reflexivity|].
  rewrite app_length, bits_be_length, IH. lia.
Qed.

Lemma bstring_spec ds i :
  (i < length ds)%nat ->
  nth i (bstring_bits ds) false = N.eqb (nth i ds 0%N) 49.
Proof. exact (nth_map_in (fun c => N.eqb c 49) ds i 0%N false). Qed.

Lemma bstring_length ds : length (bstring_bits ds) = length ds.
Proof. unfold bstring_bits. apply map_length. Qed.

Lemma span_hex_app ds r :
  forallb is_hexdigit ds = true -> is_hexdigit (hd 0%N r) = false -> span_hex (ds ++ r) = (ds, r).
Proof.
  intros Hd Hr. induction ds as [|c ds IH]; cbn [app].
  - destruct r as [|x r]; [reflexivity|]. cbn [span_hex]. cbn [hd] in Hr. now rewrite Hr.
  - cbn [forallb] in Hd. apply andb_true_iff in Hd as [Hc Hd]. cbn [span_hex]. rewrite Hc, (IH Hd). reflexivity.
Qed.

Lemma apos_token r : starts_token (APOS :: r) = true.
Proof. unfold starts_token, starts2. destruct r; reflexivity. Qed.

Lemma lex_bits_quoted t ds e rest :
  trivia t -> forallb is_hexdigit ds = true ->
  lex_bits (t ++ APOS :: ds ++ APOS :: e :: rest) =
  if N.eqb e 66 then Some (bstring_bits ds, rest) else if N.eqb e 72 then Some (hstring_bits ds, rest) else None.
Proof.
  intros Ht Hd. unfold lex_bits.
  rewrite (skipper_trivia t _ Ht (apos_token _)) by (rewrite app_length; lia). rewrite N.eqb_refl.
  rewrite (span_hex_app ds (APOS :: e :: rest) Hd) by reflexivity.
  now rewrite N.eqb_refl.
Qed.

Lemma leb_pow2_testbit k r : (r < 2 * 2 ^ k)%N -> (2 ^ k <=? r)%N = N.testbit r k.
Proof.
  intro H. rewrite N.testbit_eqb. destruct (N.leb_spec (2 ^ k) r) as [L|L].
  - now rewrite <- (N.div_unique r (2 ^ k) 1 (r - 2 ^ k)) by lia.
  - now rewrite N.div_small.
Qed.

Lemma is_bit_set_pow2 k : forall fuel r, (k < fuel)%nat -> (r < 2 * 2 ^ N.of_nat k)%N ->
  is_bit_set fuel r (2 ^ N.of_nat k) = bits_be (S k) r.
Proof.
  induction k as [|k IH]; intros [|fuel] r Hf Hr; try lia; cbn [is_bit_set];
    rewrite bits_be_S, (leb_pow2_testbit _ r Hr); f_equal.
  (* the scan goes on with r mod 2^(k+1) one power down, and the bits below k+1 are those of r *)
  pose proof (N.pow_nonzero 2 (N.of_nat k)) as Hp.
  assert (E : (2 ^ N.of_nat (S k) = 2 ^ N.of_nat k * 2)%N)
    by (rewrite Nat2N.inj_succ, N.pow_succ_r'; apply N.mul_comm).
  rewrite <- (bits_be_mod (S k) r), <- (IH fuel); [| lia | rewrite N.mul_comm, <- E; apply N.mod_lt; lia].
  rewrite E, N.div_mul by discriminate.
  now replace (2 <=? _ * 2)%N with true by (symmetry; apply N.leb_le; lia).
Qed.

Lemma octet_bits b : (b < 256)%N -> is_bit_set 9 b 128 = bits_be 8 b.
Proof. intro H. apply (is_bit_set_pow2 7); [lia | exact H]. Qed.

Lemma octets_to_bits_spec bs :
  Forall (fun b => (b < 256)%N) bs -> octets_to_bits bs = flat_map (bits_be 8) bs.
Proof.
  intro H. apply flat_map_ext_in. intros b Hb. apply octet_bits. exact (proj1 (Forall_forall _ _) H b Hb).
Qed.

(* byte_of_from weighs position i by 2^(7-i): a suffix of w bits starts at i = 8 - w *)
Lemma byte_of_from_bits w : forall i acc n, (i + w = 8)%nat ->
  byte_of_from i (bits_be w n) acc = (acc + n mod 2 ^ N.of_nat w)%N.
Proof.
  induction w as [|w IH]; intros i acc n Hi.
  - cbn. now rewrite N.mod_1_r, N.add_0_r.
  - rewrite bits_be_S. cbn [byte_of_from]. rewrite IH by lia. replace (7 - i)%nat with w by lia.
    pose proof (N.pow_nonzero 2 (N.of_nat w)) as Hp.
    rewrite Nat2N.inj_succ, N.pow_succ_r', (N.mul_comm 2), N.mod_mul_r, <- N.testbit_spec' by (lia || discriminate).
    destruct (N.testbit n (N.of_nat w)); cbn [N.b2n]; lia.
Qed.

Lemma byte_of_bits_be b : byte_of (bits_be 8 b) = (b mod 256)%N.
Proof. exact (byte_of_from_bits 8 0 0%N b eq_refl). Qed.

Lemma chunk_roundtrip (c : list bool) : length c = 8%nat -> bits_be 8 (byte_of c) = c /\ (byte_of c < 256)%N.
Proof.
  intro H. destruct (bits_be_surj c) as [n Hn]. rewrite H in Hn. rewrite <- Hn, byte_of_bits_be.
  split; [apply (bits_be_mod 8) | now apply N.mod_lt].
Qed.

Lemma bits_to_octets_f_S fuel bits :
  bits_to_octets_f (S fuel) bits =
  match bits with
  | [] => Some []
  | _ => if Nat.eqb (length (firstn 8 bits)) 8
         then match bits_to_octets_f fuel (skipn 8 bits) with
              | Some r => Some (byte_of (firstn 8 bits) :: r)
              | None => None
              end
         else None
  end.
Proof. reflexivity. Qed.

Lemma bits_to_octets_f_chunk fuel c bits :
  length c = 8%nat ->
  bits_to_octets_f (S fuel) (c ++ bits) = option_map (cons (byte_of c)) (bits_to_octets_f fuel bits).
Proof.
  intro H. rewrite bits_to_octets_f_S, <- H, firstn_app_exact, skipn_app_exact, H.
  now destruct c.
Qed.

(* the fuel is compared with the number of bits, which is what bits_to_octets starts from *)
Lemma bits_to_octets_f_roundtrip bs :
  Forall (fun b => (b < 256)%N) bs ->
  forall fuel, (length (flat_map (bits_be 8) bs) < fuel)%nat ->
  bits_to_octets_f fuel (flat_map (bits_be 8) bs) = Some bs.
Proof.
  induction 1 as [|b bs Hb _ IH]; intros [|fuel] Hf; try (cbn in Hf; lia); [reflexivity|].
  cbn [flat_map] in *. rewrite app_length, bits_be_length in Hf.
  rewrite bits_to_octets_f_chunk, IH by (apply bits_be_length || lia).
  cbn [option_map]. now rewrite byte_of_bits_be, N.mod_small.
Qed.

Lemma bits_to_octets_f_inv fuel :
  forall bits bs, bits_to_octets_f fuel bits = Some bs ->
    bits = flat_map (bits_be 8) bs /\ Forall (fun b => (b < 256)%N) bs.
Proof.
  induction fuel as [|fuel IH]; intros bits bs H; [discriminate|].
  rewrite bits_to_octets_f_S in H. destruct bits as [|x bits']; [injection H as <-; now split|].
  remember (x :: bits') as bits.
  destruct (Nat.eqb_spec (length (firstn 8 bits)) 8) as [E|]; [|discriminate].
  destruct (bits_to_octets_f fuel (skipn 8 bits)) as [r|] eqn:Er; [|discriminate].
  replace bs with (byte_of (firstn 8 bits) :: r) by congruence.
  destruct (IH _ _ Er) as [Hs Hr], (chunk_roundtrip _ E) as [Hc Hlt].
  split; [|now constructor]. cbn [flat_map]. rewrite Hc, <- Hs. symmetry. apply firstn_skipn.
Qed.

Lemma zrange_length h : length (zrange_incl h) = Z.to_nat (h + 1).
Proof. unfold zrange_incl. now rewrite map_length, seq_length. Qed.

Lemma named_bits_length h chosen dist : length (named_bits h chosen dist) = Z.to_nat (h + 1).
Proof. unfold named_bits. rewrite map_length. apply zrange_length. Qed.

Lemma zrange_nth h i : (0 <= i <= h)%Z -> nth (Z.to_nat i) (zrange_incl h) 0%Z = i.
Proof.
  intro H. unfold zrange_incl. rewrite (nth_map_in _ _ _ 0%nat) by (rewrite seq_length; lia).
  rewrite seq_nth by lia. lia.
Qed.

Lemma named_bits_nth h chosen dist i :
  (0 <= i <= h)%Z ->
  nth (Z.to_nat i) (named_bits h chosen dist) false = true <->
  exists n, In n chosen /\ find_name i dist = Some n.
Proof.
  intro H. unfold named_bits.
  rewrite (nth_map_in _ _ _ 0%Z) by (rewrite zrange_length; lia). rewrite (zrange_nth h i H), existsb_exists.
  split; intros (n & Hn & He); exists n; (split; [exact Hn|]).
  - destruct (find_name i dist) as [m|]; [|discriminate]. apply str_eqb_eq in He. now subst.
  - rewrite He. apply str_eqb_eq. reflexivity.
Qed.

Lemma find_name_iff i dist n : NoDup (map snd dist) -> find_name i dist = Some n <-> In (n, i) dist.
Proof.
  induction dist as [|[m v] r IH]; cbn [find_name map snd In]; [now split|].
  intros [Hnot Hnd']%NoDup_cons_iff. destruct (Z.eqb_spec v i) as [->|Hne].
  - (* a later pair with the same position would repeat it *)
    split; [intros [= ->]; now left | intros [[= ->]|Hin]; [reflexivity | destruct Hnot; exact (in_map snd _ _ Hin)]].
  - rewrite (IH Hnd'). split; [now right | intros [[= _ E]|Hin]; [contradiction | exact Hin]].
Qed.

(* a text within one line, and the spacing around a line break, of a cstring (C07Lines.v) *)
Definition no_nl (s : list N) : Prop := Forall (fun c => is_nl c = false) s.

Definition spacing (l : list N) : Prop := Forall (fun c => is_sp c = true) l.

Lemma lookup_Forall (P : str * N -> Prop) tbl n k : Forall P tbl -> lookup n tbl = Some k -> P (n, k).
Proof.
  induction 1 as [|[m v] r Hm _ IH]; cbn [lookup]; [discriminate|].
  destruct (str_eqb_spec n m) as [->|_]; [now intros [= <-] | exact IH].
Qed.

(* the generated ladder evaluated at each entry of the X.660 tables *)
Lemma root_names_ok root : Forall (fun e => well_known (Some (fst e)) root = Some (snd e)) x660_root.
Proof. repeat constructor. Qed.

Lemma second_names_ok v : Forall (fun e => well_known (Some (fst e)) (Some v) = Some (snd e)) (x660_second v).
Proof.
  unfold x660_second. destruct (N.eqb_spec v 0) as [->|_]; [repeat constructor|].
  destruct (N.eqb_spec v 1) as [->|_]; repeat constructor.
Qed.

Lemma x660_second_lt v nm k : lookup nm (x660_second v) = Some k -> (v < 2)%N.
Proof.
  unfold x660_second. destruct (N.eqb_spec v 0) as [->|_]; [reflexivity|].
  destruct (N.eqb_spec v 1) as [->|_]; [reflexivity | discriminate].
Qed.

(* oid_root knows the roots 0 and 1 only; under any other first arc there are no second-level names (x660_second_lt) *)
Lemma root_names_detected r :
  Forall (fun e => (snd e < 2)%N -> oid_root ({| a_name := Some (fst e); a_num := None |} :: r) = Some (snd e))
         x660_root.
Proof. repeat constructor; intro H; discriminate H. Qed.

Definition to_arc (a : src_arc) : arc := {| a_name := fst a; a_num := snd a |}.

(* the first arc: a name(number) form whose name is a root name carries that root's number *)
Definition wf_first (a : src_arc) : bool :=
  match a with
  | (Some nm, Some n) => match lookup nm x660_root with Some k => N.eqb k n | None => true end
  | _ => true
  end.

(* the value the specification gives one arc, at position pos after the values sofar (last first) *)
Definition arc_value (pos : nat) (sofar : list N) (a : src_arc) : option N :=
  match a with
  | (_, Some n) => Some n
  | (Some name, None) =>
      match pos, rev sofar with
      | 0, _ => lookup name x660_root
      | 1, [a0] => lookup name (x660_second a0)
      | 2, [a0; a1] => if (N.eqb a0 0 && N.eqb a1 0)%bool then x660_letter name else None
      | _, _ => None
      end
  | (None, None) => None
  end.

Lemma oid_sem_from_cons pos sofar a r :
  oid_sem_from pos sofar (a :: r) =
  match arc_value pos sofar a with Some v => oid_sem_from (S pos) (v :: sofar) r | None => None end.
Proof. destruct a as [[nm|] [n|]]; reflexivity. Qed.

Lemma first_resolves a root v : arc_value 0 [] a = Some v -> resolve_arc root (to_arc a) = Some v.
Proof.
  destruct a as [[nm|] [n|]]; cbn [arc_value]; try discriminate; try exact id.
  exact (lookup_Forall _ _ nm v (root_names_ok root)).
Qed.

Lemma name_tests nm :
  (opt_eqb str_eqb (Some nm) (Some ITU_T_NAME) || opt_eqb str_eqb (Some nm) (Some CCITT_NAME))%bool = true ->
  lookup nm x660_root = Some 0%N.
Proof.
  cbn [opt_eqb]. intro H. apply orb_true_iff in H as [H|H]; apply str_eqb_eq in H; subst; reflexivity.
Qed.

Lemma name_test_iso nm : opt_eqb str_eqb (Some nm) (Some ISO_NAME) = true -> lookup nm x660_root = Some 1%N.
Proof. cbn [opt_eqb]. intro H. apply str_eqb_eq in H; subst; reflexivity. Qed.

Lemma root_of_first a r v :
  wf_first a = true -> arc_value 0 [] a = Some v -> (v < 2)%N -> oid_root (to_arc a :: r) = Some v.
Proof.
  intros Hwf Hv Hlt. assert (v = 0 \/ v = 1)%N as Hv01 by lia.
  destruct a as [[nm|] [n|]]; cbn [arc_value wf_first] in *; try discriminate.
  - injection Hv as ->. unfold oid_root, to_arc. cbn [a_name a_num fst snd].
    destruct (_ || opt_eqb str_eqb (Some nm) (Some CCITT_NAME))%bool eqn:E.
    + (* an itu-t name: the number written with it is 0 *)
      apply name_tests in E. rewrite E in Hwf. now apply N.eqb_eq in Hwf as <-.
    + destruct Hv01 as [-> | ->]; cbn [orb opt_n_eqb N.eqb Pos.eqb]; [reflexivity | now rewrite orb_true_r].
  - exact (lookup_Forall _ _ nm v (root_names_detected r) Hv Hlt).
  - injection Hv as ->. now destruct Hv01 as [-> | ->].
Qed.

(* after the first arc, whose value v0 has fixed the root: before holds the arcs already read, and the values so far are
   written s ++ [v0] so that their reverse, which the specification matches on, shows v0 in front *)
Lemma sem_from_resolves root v0 :
  (forall nm k, lookup nm (x660_second v0) = Some k -> well_known (Some nm) root = Some k) ->
  forall arcs before s ns,
    before <> [] -> has_bare_letter (before ++ arcs) = false ->
    oid_sem_from (length before) (s ++ [v0]) arcs = Some ns ->
    exists nums, all_some (map (resolve_arc root) (map to_arc arcs)) = Some nums /\ ns = v0 :: rev s ++ nums.
Proof.
  intro Hsec. induction arcs as [|a arcs IH]; intros before s ns Hne Hlet Hs.
  - injection Hs as <-. exists []. now rewrite rev_app_distr, app_nil_r.
  - rewrite oid_sem_from_cons in Hs. destruct (arc_value (length before) (s ++ [v0]) a) as [v|] eqn:Ev; [|discriminate].
    destruct (IH (before ++ [a]) (v :: s) ns) as [nums [H1 H2]];
      [now destruct before | now rewrite <- app_assoc | now rewrite last_length |].
    exists (v :: nums). cbn [map all_some]. rewrite H1, H2. cbn [rev]. rewrite <- app_assoc. split; [|reflexivity].
    enough (resolve_arc root (to_arc a) = Some v) as -> by reflexivity.
    destruct a as [[nm|] [n|]]; cbn [arc_value] in Ev; try discriminate; try exact Ev.
    (* a bare name: at position 1 it is a second-level name, at position 2 it is the excluded letter arc *)
    rewrite rev_app_distr in Ev. cbn [rev app] in Ev.
    destruct before as [|b0 [|b1 [|b2 before]]]; [contradiction | | discriminate Hlet | discriminate Ev].
    destruct (rev s); [now apply Hsec | discriminate].
Qed.

Theorem oid_numbers_spec (arcs : list src_arc) ns :
  match arcs with a :: _ => wf_first a = true | [] => True end ->
  has_bare_letter arcs = false ->
  oid_sem arcs = Some ns ->
  oid_numbers (map to_arc arcs) = Some ns.
Proof.
  unfold oid_numbers, oid_sem. destruct arcs as [|a0 r]; intros Hwf Hlet Hs; [exact Hs|].
  rewrite oid_sem_from_cons in Hs. destruct (arc_value 0 [] a0) as [v0|] eqn:Ev; [|discriminate].
  cbn [map]. set (root := oid_root _).
  destruct (sem_from_resolves root v0) with (arcs := r) (before := [a0]) (s := @nil N) (ns := ns) as [nums [H1 H2]];
    [ | discriminate | exact Hlet | exact Hs | ].
  - (* the second-level names are looked up under the root the first arc denotes *)
    intros nm k Hl. unfold root. rewrite (root_of_first a0 _ v0 Hwf Ev (x660_second_lt _ _ _ Hl)).
    exact (lookup_Forall _ _ nm k (second_names_ok v0) Hl).
  - cbn [all_some]. now rewrite (first_resolves a0 root v0 Ev), H1, H2.
Qed.
