(* C02 / C05 across the linker: the components copied for COMPONENTS OF join the extension root of the including type,
   in order, and the type's own additions stay additions (Model/Expansion.v link_insert, link_marked). *)
From Coq Require Import NArith Arith List.
Require Import RasnV.Model.Base RasnV.Model.Expansion RasnV.Proofs.Indexed.
Import ListNotations.

(* a component inserted at the index of the first addition becomes the last of the root *)
Lemma insert_copied_at (root adds : list str) m :
  insert_copied (root ++ adds, Some (length root)) m = ((root ++ [m]) ++ adds, Some (length (root ++ [m]))).
Proof.
  cbn [insert_copied]. rewrite firstn_app, firstn_all, skipn_app, skipn_all, Nat.sub_diag. cbn [firstn skipn app].
  now rewrite app_nil_r, <- app_assoc, app_length, Nat.add_1_r.
Qed.

Lemma link_insert_some copied : forall root adds : list str,
  link_insert (root ++ adds) (Some (length root)) copied = (root ++ copied ++ adds, Some (length (root ++ copied))).
Proof.
  unfold link_insert. induction copied as [|m r IH]; intros root adds; cbn [fold_left].
  - now rewrite app_nil_r.
  - now rewrite insert_copied_at, IH, <- !app_assoc.
Qed.

Lemma link_insert_none copied : forall ms, link_insert ms None copied = (ms ++ copied, None).
Proof.
  unfold link_insert. induction copied as [|m r IH]; intro ms; cbn [fold_left insert_copied].
  - now rewrite app_nil_r.
  - rewrite IH, <- app_assoc. reflexivity.
Qed.

(* flag_from is the walk with a running index of Proofs/Indexed.v *)
Lemma flag_from_imap e l : forall i, flag_from e i l = imap (fun j x => (x, is_addition e j)) i l.
Proof. induction l as [|x l IH]; intro i; cbn; [reflexivity | now rewrite IH]. Qed.

Example link_marked_example :
  link_marked [[97]%N] [[98]%N] [[120]%N; [121]%N] true = [([97]%N, false); ([120]%N, false); ([121]%N, false); ([98]%N, true)].
Proof. vm_compute. reflexivity. Qed.
