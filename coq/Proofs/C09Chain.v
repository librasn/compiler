(* C09, COMPONENTS OF entries that come last, in chains of any depth and in any name order: the linking pass yields the meaning
   of the notation for every type at the head of a chain that is not circular and whose COMPONENTS OF entries come last in
   every list.  (Position: a notation that does not come last is the known finding C09-components-of-appended.)
   This is the result for notations at any position (C09Perm.v) read for such chains: there [appended] is the expansion. *)
From Coq Require Import List Lia.
Require Import RasnV.Model.Base RasnV.Model.Expansion.
Require Import RasnV.Proofs.C09 RasnV.Proofs.C09Perm.
Import ListNotations.

Section Chain.
  Variable ds : list tdef.
  Variable rank : str -> nat.

  (* the chains are nested inductives (the premise for a reference stands under exists and /\), so the generated induction
     principle has no hypothesis for the referenced types; the rank is what there is to induct on *)
  Lemma acyclic_any : forall m n, rank n <= m -> acyclic_chain ds rank n -> any_chain ds rank n.
  Proof.
    induction m as [|m IH]; intros n Hm Hac; destruct Hac as [n d Hd _ Hrefs]; apply (anyc_intro _ _ n d Hd); intros r Hr;
      destruct (Hrefs r Hr) as [Hlt [dr [Hfr [Hk Hacr]]]].
    - lia.   (* rank r < rank n <= 0: the head of a chain of rank 0 has no reference *)
    - split; [exact Hlt|]. exists dr. split; [exact Hfr|]. split; [exact Hk|]. apply IH; [lia | exact Hacr].
  Qed.

  Lemma acyclic_leaf r dr : find_def r ds = Some dr -> refs_of (t_items dr) = [] -> acyclic_chain ds rank r.
  Proof.
    intros Hf Hno. apply (ac_intro _ _ r dr Hf); unfold trailing; rewrite Hno; [|intros ? []].
    cbn [map]. rewrite app_nil_r. now apply norefs_owns.
  Qed.

  Lemma expand_appended : forall f n d, acyclic_chain ds rank n -> find_def n ds = Some d ->
    expand f ds (t_is_seq d) (t_items d) = appended f ds (t_is_seq d) (t_items d).
  Proof.
    induction f as [|f IH]; intros n d Hac Hd; [reflexivity|].
    destruct Hac as [n d0 Hd0 Htr Hrefs]. rewrite Hd in Hd0. injection Hd0 as <-.
    rewrite (expand_trailing f ds _ _ _ _ Htr). cbn [appended]. f_equal.
    apply flat_map_ext_in. intros r Hr. destruct (Hrefs r Hr) as [_ [dr [Hfr [Hk Hacr]]]].
    rewrite Hfr, <- Hk, Bool.eqb_reflx. now apply (IH r).
  Qed.

  Hypothesis rank_bound : forall y, rank y <= length ds.

  Theorem link_pass_acyclic n :
    NoDup (map t_name ds) -> acyclic_chain ds rank n -> linked_members ds n = expanded_members ds n.
  Proof.
    intros Hnd Hac. inversion Hac as [n0 d Hd _ _]; subst n0.
    rewrite (link_pass_appended ds rank rank_bound n d Hnd (acyclic_any _ n (le_n _) Hac) Hd).
    unfold expanded_members. rewrite Hd. cbn [option_map]. f_equal. symmetry. now apply (expand_appended _ n).
  Qed.
End Chain.

(* depth one needs no rank in its statement: 1 for the including type and 0 for every other will do *)
Theorem link_pass_depth_one ds n k own refs :
  NoDup (map t_name ds) ->
  find_def n ds = Some (mktdef n k (map Own own ++ map ComponentsOf refs)) ->
  (forall r, In r refs -> r <> n /\ exists dr, find_def r ds = Some dr /\ t_is_seq dr = k /\ refs_of (t_items dr) = []) ->
  linked_members ds n = expanded_members ds n.
Proof.
  intros Hnd Hd Hrefs. apply (link_pass_acyclic ds (fun y => if str_eqb y n then 1 else 0)); [| exact Hnd |].
  - intro y. destruct ds; [discriminate|]. destruct (str_eqb y n); cbn; lia.
  - destruct (trailing_parts own refs) as [Eo Er].
    apply (ac_intro _ _ n _ Hd); unfold trailing; cbn [t_items t_is_seq]; rewrite Er; [now rewrite Eo|].
    intros r Hr. destruct (Hrefs r Hr) as [Hne [dr [Hfr [Hk Hno]]]]. rewrite str_eqb_refl, (str_eqb_neq r n Hne).
    split; [lia|]. exists dr. split; [exact Hfr|]. split; [exact Hk|]. now apply (acyclic_leaf _ _ r dr).
Qed.

(* a chain of depth two whose middle type is linked AFTER the type that includes it (the order the pass got wrong until the
   fix of C09-components-of-chain-order):  Aa { id }, Mm { label, COMPONENTS OF Aa }, Zz { flag, COMPONENTS OF Mm } *)
Definition ds_chain : list tdef :=
  [mktdef nA true [Own n_id]; mktdef nM true [Own n_label; ComponentsOf nA]; mktdef nZ true [Own n_flag; ComponentsOf nM]].
Definition rank_chain (x : str) : nat := if str_eqb x nZ then 2 else if str_eqb x nM then 1 else 0.

Lemma ds_chain_acyclic : acyclic_chain ds_chain rank_chain nZ.
Proof.
  eapply ac_intro; [reflexivity | reflexivity |]. intros r [<-|[]]. split; [cbn; lia|].
  eexists. split; [reflexivity|]. split; [reflexivity|].
  eapply ac_intro; [reflexivity | reflexivity |]. intros r [<-|[]]. split; [cbn; lia|].
  eexists. split; [reflexivity|]. split; [reflexivity|].
  eapply ac_intro; [reflexivity | reflexivity |]. intros r [].
Qed.

Example acyclic_chain_applies :
  NoDup (map t_name ds_chain) /\ (forall y, rank_chain y <= length ds_chain) /\ acyclic_chain ds_chain rank_chain nZ /\
  linked_members ds_chain nZ = Some [n_flag; n_label; n_id].
Proof.
  split; [repeat constructor; cbn; intuition discriminate|].
  split; [intro y; unfold rank_chain; cbn; destruct (str_eqb y nZ); [lia|]; destruct (str_eqb y nM); lia|].
  split; [exact ds_chain_acyclic | vm_compute; reflexivity].
Qed.
