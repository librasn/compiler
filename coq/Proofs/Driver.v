(* The BTreeMap of Model/Driver.v is a list kept strictly sorted by key, and such a list is determined by its entries
   ([sorted_unique]).  So [from_list] depends only on the set of values inserted when their keys are distinct: that is
   C11 (any order of arrival) and, restricted to one module, C12.  For C10 a grouping is read through its [entries], the
   (module, definition) pairs in it, to which [add_to_group] adds one, up to order; with distinct names a definition of
   the input is then represented exactly when its outcome has bindings ([represented_iff]). *)
From Coq Require Import NArith List Permutation Sorting.Sorted.
Require Import RasnV.Model.Base RasnV.Model.Driver.
Import ListNotations.

Definition lt (a b : str) : Prop := str_compare a b = Lt.

Lemma cmp_refl a : str_compare a a = Eq.
Proof. induction a as [|x a IH]; cbn; [reflexivity|]. now rewrite N.compare_refl. Qed.

Lemma cmp_eq a b : str_compare a b = Eq -> a = b.
Proof.
  revert b; induction a as [|x a IH]; destruct b as [|y b]; cbn; intro H; try reflexivity; try discriminate.
  destruct (N.compare x y) eqn:E; try discriminate. apply N.compare_eq_iff in E. subst. f_equal. now apply IH.
Qed.

Lemma cmp_antisym a b : str_compare b a = CompOpp (str_compare a b).
Proof.
  revert b; induction a as [|x a IH]; destruct b as [|y b]; cbn; try reflexivity.
  rewrite (N.compare_antisym x y). destruct (N.compare x y); cbn; [apply IH | reflexivity | reflexivity].
Qed.

Lemma str_compare_spec a b : CompareSpec (a = b) (lt a b) (lt b a) (str_compare a b).
Proof.
  unfold lt. rewrite (cmp_antisym a b).
  destruct (str_compare a b) eqn:E; constructor; [now apply cmp_eq | reflexivity | reflexivity].
Qed.

Lemma lt_gt a b : lt a b -> str_compare b a = Gt.
Proof. intro H. rewrite cmp_antisym, H. reflexivity. Qed.

Lemma lt_trans a b c : lt a b -> lt b c -> lt a c.
Proof.
  unfold lt. revert b c. induction a as [|x a IH]; intros [|y b] [|z c]; cbn; try discriminate; try reflexivity.
  destruct (N.compare_spec x y) as [->|Hxy|Hxy]; [| |discriminate].
  - destruct (N.compare y z); [apply IH | reflexivity | discriminate].
  - intros _. destruct (N.compare_spec y z) as [<-|Hyz|Hyz]; [| |discriminate]; intros _.
    + rewrite (proj2 (N.compare_lt_iff x y) Hxy). reflexivity.
    + rewrite (proj2 (N.compare_lt_iff x z) (N.lt_trans _ _ _ Hxy Hyz)). reflexivity.
Qed.

Lemma lt_irrefl a : ~ lt a a.
Proof. unfold lt. rewrite cmp_refl. discriminate. Qed.

Section MapFacts.
  Context {V : Type}.
  Implicit Types m : list (str * V).
  Implicit Types key : V -> str.

  Definition klt (p q : str * V) : Prop := lt (fst p) (fst q).
  Definition sorted (m : list (str * V)) : Prop := StronglySorted klt m.

  Lemma insert_lt k (v : V) k' v' r : lt k k' -> insert k v ((k', v') :: r) = (k, v) :: (k', v') :: r.
  Proof. intro H. cbn [insert]. rewrite H. reflexivity. Qed.

  Lemma insert_eq k (v v' : V) r : insert k v ((k, v') :: r) = (k, v) :: r.
  Proof. cbn [insert]. rewrite cmp_refl. reflexivity. Qed.

  Lemma insert_gt k (v : V) k' v' r : lt k' k -> insert k v ((k', v') :: r) = (k', v') :: insert k v r.
  Proof. intro H. cbn [insert]. rewrite (lt_gt _ _ H). reflexivity. Qed.

  (* with k1 below k2, where the head k' of the map stands relative to the two keys decides every comparison *)
  Lemma insert_comm_lt k1 (v1 : V) k2 v2 m :
    lt k1 k2 -> insert k1 v1 (insert k2 v2 m) = insert k2 v2 (insert k1 v1 m).
  Proof.
    intro H. induction m as [|[k' v'] r IH].
    - cbn [insert]. now rewrite H, (lt_gt _ _ H).
    - destruct (str_compare_spec k2 k') as [<-|L|L].
      + now rewrite insert_eq, !(insert_lt k1), (insert_gt k2), insert_eq.
      + rewrite (insert_lt k2), !(insert_lt k1), (insert_gt k2), (insert_lt k2); eauto using lt_trans.
      + destruct (str_compare_spec k1 k') as [<-|L1|L1].
        * now rewrite (insert_gt k2), !insert_eq, (insert_gt k2).
        * now rewrite (insert_gt k2), !(insert_lt k1), !(insert_gt k2).
        * now rewrite (insert_gt k2), !(insert_gt k1), (insert_gt k2), IH.
  Qed.

  Lemma insert_comm k1 (v1 : V) k2 v2 m :
    k1 <> k2 -> insert k1 v1 (insert k2 v2 m) = insert k2 v2 (insert k1 v1 m).
  Proof.
    intro Hne. destruct (str_compare_spec k1 k2) as [E|L|L];
      [contradiction | now apply insert_comm_lt | symmetry; now apply insert_comm_lt].
  Qed.

  Lemma insert_incl k (v : V) m p : In p (insert k v m) -> (k, v) = p \/ In p m.
  Proof.
    induction m as [|[k' v'] r IH]; cbn [insert]; [|destruct (str_compare k k')]; cbn [In]; intros [H|H]; auto.
    apply IH in H as [H|H]; auto.
  Qed.

  Lemma insert_has k (v : V) m p : (k, v) = p \/ fst p <> k /\ In p m -> In p (insert k v m).
  Proof.
    induction m as [|[k' v'] r IH]; cbn [insert In]; [intros [H|[_ []]]; now left|].
    destruct (str_compare_spec k k') as [<-|L|L]; cbn [In]; intros [H|[Hne [H|H]]]; auto.
    subst p. now destruct Hne.
  Qed.

  Lemma insert_sorted k (v : V) m : sorted m -> sorted (insert k v m).
  Proof.
    induction 1 as [|[k' v'] r Hs IH Hall]; cbn [insert]; [repeat constructor|].
    destruct (str_compare_spec k k') as [<-|L|L].
    - now constructor.
    - constructor; [now constructor|]. constructor; [exact L|].
      eapply Forall_impl; [|exact Hall]. intros q. apply lt_trans. exact L.
    - constructor; [exact IH|]. apply Forall_forall. intros q Hq.
      apply insert_incl in Hq as [<-|Hq]; [exact L | revert q Hq; now apply Forall_forall].
  Qed.

  Lemma sorted_keys_nodup m : sorted m -> NoDup (map fst m).
  Proof.
    induction 1 as [|p r Hs IH Hall]; cbn [map]; constructor; [|exact IH].
    intro Hin. apply in_map_iff in Hin as [q [Hq Hin]]. rewrite Forall_forall in Hall. specialize (Hall q Hin).
    unfold klt in Hall. rewrite Hq in Hall. exact (lt_irrefl _ Hall).
  Qed.

  Lemma filter_sorted (P : str * V -> bool) m : sorted m -> sorted (filter P m).
  Proof.
    induction 1 as [|p r Hs IH Hall]; cbn [filter]; [constructor|].
    destruct (P p); [|exact IH]. constructor; [exact IH|].
    apply Forall_forall. intros q Hq. apply filter_In in Hq as [Hq _]. revert q Hq. now apply Forall_forall.
  Qed.

  Lemma sorted_unique m : sorted m -> forall m', sorted m' -> (forall p, In p m <-> In p m') -> m = m'.
  Proof.
    induction 1 as [|p r Hs IH Hp]; intros [|q r'] Hs' Heq.
    - reflexivity.
    - destruct (proj2 (Heq q)). now left.
    - destruct (proj1 (Heq p)). now left.
    - apply StronglySorted_inv in Hs' as [Hs' Hq]. rewrite Forall_forall in Hp, Hq.
      (* each head is the least entry of both maps *)
      assert (E : p = q).
      { destruct (proj1 (Heq p) (or_introl eq_refl)) as [E|Hpq]; [now symmetry|].
        destruct (proj2 (Heq q) (or_introl eq_refl)) as [E|Hqp]; [exact E|].
        destruct (lt_irrefl _ (lt_trans _ _ _ (Hq _ Hpq) (Hp _ Hqp))). }
      subst q. f_equal. apply IH; [exact Hs'|]. intro x. split; intro Hx.
      + destruct (proj1 (Heq x) (or_intror Hx)) as [<-|H]; [destruct (lt_irrefl _ (Hp _ Hx)) | exact H].
      + destruct (proj2 (Heq x) (or_intror Hx)) as [<-|H]; [destruct (lt_irrefl _ (Hq _ Hx)) | exact H].
  Qed.

  Lemma from_list_snoc key l x : from_list key (l ++ [x]) = insert (key x) x (from_list key l).
  Proof. unfold from_list. now rewrite fold_left_app. Qed.

  Lemma from_list_sorted key l : sorted (from_list key l).
  Proof. induction l using rev_ind; [constructor | rewrite from_list_snoc; now apply insert_sorted]. Qed.

  Lemma from_list_sound key l k v : In (k, v) (from_list key l) -> In v l /\ k = key v.
  Proof.
    induction l as [|x l IH] using rev_ind; [intros []|]. rewrite from_list_snoc, in_app_iff. intro H.
    apply insert_incl in H as [[= <- <-]|H]; [split; [right; now left | reflexivity]|].
    destruct (IH H). split; [now left | assumption].
  Qed.

  Lemma from_list_complete key l v : NoDup (map key l) -> In v l -> In (key v, v) (from_list key l).
  Proof.
    induction l as [|x l IH] using rev_ind; [intros _ []|]. rewrite from_list_snoc, map_app, in_app_iff. intros Hnd Hin.
    apply NoDup_remove in Hnd as [Hnd Hx]. rewrite app_nil_r in Hnd, Hx.
    apply insert_has. destruct Hin as [Hin|[->|[]]]; [right | now left].
    split; [|now apply IH]. cbn [fst]. intro E. apply Hx. rewrite <- E. now apply in_map.
  Qed.

  Theorem from_list_filter_ext key (P : V -> bool) l l' :
    NoDup (map key l) -> NoDup (map key l') -> (forall v, P v = true -> (In v l <-> In v l')) ->
    filter (fun p => P (snd p)) (from_list key l) = filter (fun p => P (snd p)) (from_list key l').
  Proof.
    intros Hnd Hnd' Hsame. apply sorted_unique; try apply filter_sorted, from_list_sorted.
    intros [k v]. rewrite !filter_In. cbn [snd].
    split; intros [H Hp]; (split; [|exact Hp]); apply from_list_sound in H as [H ->]; apply from_list_complete; trivial;
      now apply (Hsame v Hp).
  Qed.

  Theorem from_list_perm key l l' :
    Permutation l l' -> NoDup (map key l) -> from_list key l = from_list key l'.
  Proof.
    intros Hp Hnd. assert (Hnd' : NoDup (map key l')) by (eapply Permutation_NoDup; [apply Permutation_map|]; eassumption).
    apply sorted_unique; try apply from_list_sorted.
    intros [k v]. split; intro H; apply from_list_sound in H as [H ->]; apply from_list_complete; trivial;
      [apply (Permutation_in _ Hp H) | apply (Permutation_in _ (Permutation_sym Hp) H)].
  Qed.
End MapFacts.

Lemma NoDup_map_inj {A B} (f : A -> B) l x y : NoDup (map f l) -> In x l -> In y l -> f x = f y -> x = y.
Proof.
  induction l as [|z l IH]; cbn [map In]; [intros _ []|]. intro Hnd. inversion Hnd as [|? ? Hz Hnd']; subst.
  intros [->|Hx] [->|Hy] E; auto; destruct Hz; [rewrite E | rewrite <- E]; now apply in_map.
Qed.

Lemma concat_perm {A} (l l' : list (list A)) : Permutation l l' -> Permutation (concat l) (concat l').
Proof. intro H. rewrite <- (map_id l), <- (map_id l'), <- !flat_map_concat_map. now apply Permutation_flat_map. Qed.

Lemma concat_perm_inner {A} (l l' : list (list A)) :
  Forall2 (@Permutation A) l l' -> Permutation (concat l) (concat l').
Proof. induction 1 as [|x y l l' Hxy _ IH]; cbn [concat]; [constructor | now apply Permutation_app]. Qed.

Lemma concat_forall2 {A} (R : A -> A -> Prop) (l l' : list (list A)) :
  Forall2 (Forall2 R) l l' -> Forall2 R (concat l) (concat l').
Proof. induction 1 as [|x y l l' Hxy _ IH]; cbn [concat]; [constructor | now apply Forall2_app]. Qed.

Definition entries (g : list (str * list def)) : list (str * def) :=
  flat_map (fun kl => map (pair (fst kl)) (snd kl)) g.

Lemma in_entries g k x : In (k, x) (entries g) <-> exists l, In (k, l) g /\ In x l.
Proof.
  unfold entries. rewrite in_flat_map. split.
  - intros [[k' l] [Hg Hx]]. apply in_map_iff in Hx as [y [[= <- <-] Hy]]. exists l. split; assumption.
  - intros [l [Hg Hx]]. exists (k, l). split; [exact Hg | apply in_map; exact Hx].
Qed.

Lemma add_to_group_entries d g : Permutation (entries (add_to_group d g)) ((d_mod d, d) :: entries g).
Proof.
  induction g as [|[k ds] r IH]; cbn [add_to_group]; [reflexivity|].
  destruct (str_compare_spec (d_mod d) k) as [<-|L|L]; unfold entries in *; cbn [flat_map fst snd map] in *.
  - rewrite map_app. cbn [map]. rewrite <- app_assoc. symmetry. apply Permutation_middle.
  - reflexivity.
  - rewrite IH. symmetry. apply Permutation_middle.
Qed.

Lemma group_snoc ds d : group (ds ++ [d]) = add_to_group d (group ds).
Proof. unfold group. now rewrite fold_left_app. Qed.

Lemma group_entries ds : Permutation (entries (group ds)) (map (fun d => (d_mod d, d)) ds).
Proof.
  induction ds as [|d ds IH] using rev_ind; [reflexivity|].
  rewrite group_snoc, add_to_group_entries, IH, map_app. apply Permutation_cons_append.
Qed.

Lemma group_in ds x k : (exists l, In (k, l) (group ds) /\ In x l) <-> (In x ds /\ k = d_mod x).
Proof.
  rewrite <- in_entries, group_entries, in_map_iff. split.
  - intros [d [[= <- <-] Hd]]. split; [exact Hd | reflexivity].
  - intros [Hx ->]. exists x. split; [reflexivity | exact Hx].
Qed.

Lemma tld_map_sound s d : In d (map snd (tld_map s)) -> In d (flatten s).
Proof. intro H. apply in_map_iff in H as [[k v] [<- Hin]]. exact (proj1 (from_list_sound _ _ _ _ Hin)). Qed.

Lemma tld_map_complete s d : NoDup (map d_name (flatten s)) -> In d (flatten s) -> In d (map snd (tld_map s)).
Proof. intros Hnd Hin. apply in_map_iff. exists (d_name d, d). split; [reflexivity | now apply from_list_complete]. Qed.

Section DriverFacts.
  Variable outcome : def -> status.

  Lemma blocks_spec s m n :
    (exists names, In (m, names) (blocks outcome s) /\ In n names) <->
    exists d, In d (map snd (tld_map s)) /\ d_mod d = m /\ d_name d = n /\ has_bindings (outcome d) = true.
  Proof.
    unfold blocks. split.
    - intros [names [Hb Hn]]. apply in_map_iff in Hb as [[k l] [[= <- <-] Hl]].
      apply in_map_iff in Hn as [d [<- Hd]]. apply filter_In in Hd as [Hd Hbd].
      destruct (proj1 (group_in _ d _) (ex_intro _ l (conj Hl Hd))) as [Hs ->].
      apply filter_In in Hs as [Hs _]. exists d. repeat split; assumption.
    - intros [d [Hd [<- [<- Hb]]]].
      destruct (proj2 (group_in (survivors outcome (tld_map s)) d (d_mod d))) as [l [Hl Hdl]].
      { split; [|reflexivity]. apply filter_In. split; [exact Hd|].
        (* what has bindings has reached the generator *)
        destruct (outcome d); try discriminate; reflexivity. }
      exists (map d_name (filter (fun d0 => has_bindings (outcome d0)) l)). split.
      + apply in_map_iff. exists (d_mod d, l). split; [reflexivity | exact Hl].
      + apply in_map, filter_In. split; assumption.
  Qed.

  Definition represented (s : list (list (list def))) (d : def) : Prop :=
    exists names, In (d_mod d, names) (blocks outcome s) /\ In (d_name d) names.

  Theorem represented_iff s d :
    NoDup (map d_name (flatten s)) -> In d (flatten s) -> (represented s d <-> has_bindings (outcome d) = true).
  Proof.
    intros Hnd Hin. unfold represented. rewrite blocks_spec. split.
    - intros [x [Hx [_ [Hn Hb]]]]. now rewrite <- (NoDup_map_inj d_name _ x d Hnd (tld_map_sound _ _ Hx) Hin Hn).
    - intro Hb. exists d. auto using tld_map_complete.
  Qed.

  Theorem warned_if s d :
    NoDup (map d_name (flatten s)) -> In d (flatten s) -> has_warning (outcome d) = true ->
    In (d_name d) (warning_subjects outcome s).
  Proof. intros Hnd Hin Hw. apply in_map, filter_In. auto using tld_map_complete. Qed.
End DriverFacts.

(* C10, locality: a change of what happens to one definition leaves the representation of every other one as it was *)
Theorem locality outcome outcome' s d :
  NoDup (map d_name (flatten s)) ->
  (forall x, x <> d -> outcome x = outcome' x) ->
  forall d', In d' (flatten s) -> d' <> d ->
    (represented outcome s d' <-> represented outcome' s d').
Proof. intros Hnd Hsame d' Hin Hne. rewrite !represented_iff by assumption. now rewrite (Hsame d' Hne). Qed.
