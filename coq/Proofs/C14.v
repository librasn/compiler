From Coq Require Import ZArith List Lia Sorted.
Require Import RasnV.Model.Base RasnV.Model.Enum RasnV.Spec.EnumSpec.
Import ListNotations.
Local Open Scope Z_scope.

Lemma zmem_In z l : zmem z l = true <-> In z l.
Proof. exact (existsb_eqb_In Z.eqb Z.eqb_eq z l). Qed.

Lemma zmem_false z l : zmem z l = false <-> ~ In z l.
Proof. rewrite <- zmem_In. destruct (zmem z l); split; intro H; congruence. Qed.

(* [skip used (length used) n] is the least number from n on that is not in [used] (skip_ge, skip_notin, skip_gap).
   The fuel suffices because each round of `while used.contains(&next)` passes one member of [used]; [cnt] counts
   those still ahead. *)
Definition cnt (used : list Z) (n : Z) : nat := length (filter (fun u => Z.leb n u) used).

Lemma cnt_le_length used n : (cnt used n <= length used)%nat.
Proof.
  unfold cnt. induction used as [|u used IH]; cbn [filter length]; [lia|].
  destruct (Z.leb n u); cbn [length]; lia.
Qed.

Lemma cnt_step used n : (cnt used (n + 1) + (if zmem n used then 1 else 0) <= cnt used n)%nat.
Proof.
  unfold cnt, zmem. induction used as [|u used IH]; cbn [filter existsb]; [lia|].
  destruct (Z.eqb_spec n u) as [<-|Hne]; cbn [orb].
  - rewrite Z.leb_refl, (proj2 (Z.leb_gt _ _)) by lia. cbn [length]. lia.
  - destruct (Z.leb_spec (n + 1) u), (Z.leb_spec n u); cbn [length]; lia.
Qed.

Lemma skip_ge used f n : n <= skip used f n.
Proof.
  revert n. induction f as [|f IH]; intro n; cbn [skip]; [lia|].
  destruct (zmem n used); [specialize (IH (n + 1)); lia | lia].
Qed.

Lemma skip_notin_gen used f n : (cnt used n <= f)%nat -> zmem (skip used f n) used = false.
Proof.
  revert n. induction f as [|f IH]; intros n H; cbn [skip]; pose proof (cnt_step used n) as S;
    destruct (zmem n used) eqn:E.
  - lia.            (* no fuel left and n is used: cnt_step makes the count positive *)
  - reflexivity.    (* no fuel left, n is free: the answer is n *)
  - apply IH. lia.  (* n is used: on to n + 1, one member of used passed *)
  - exact E.        (* n is free: the answer is n *)
Qed.

Lemma skip_notin used n : ~ In (skip used (length used) n) used.
Proof. apply zmem_false, skip_notin_gen, cnt_le_length. Qed.

Lemma skip_gap used f n m : n <= m < skip used f n -> In m used.
Proof.
  revert n. induction f as [|f IH]; intros n H; cbn [skip] in H; [lia|].
  destruct (zmem n used) eqn:E; [|lia].
  destruct (Z.eq_dec m n) as [->|Hne]; [apply zmem_In; exact E|].
  apply (IH (n + 1)). lia.
Qed.

(* what both numbering passes do to every item: the identifier stays, a written number stays *)
Definition agrees (items : list item) (out : list (str * Z)) : Prop :=
  Forall2 (fun it p => fst p = fst it /\ match snd it with Some z => snd p = z | None => True end) items out.

Lemma agrees_names items out : agrees items out -> map fst out = map fst items.
Proof. induction 1 as [|it p items out [H _] _ IH]; cbn [map]; congruence. Qed.

Lemma agrees_length items out : agrees items out -> length out = length items.
Proof. induction 1; cbn [length]; congruence. Qed.

Lemma agrees_kept items out : agrees items out -> kept items (map snd out) = true.
Proof.
  induction 1 as [|[n [z|]] [m v] items out [_ H] _ IH]; cbn [kept map snd] in *; [reflexivity| |exact IH].
  subst v. rewrite Z.eqb_refl. exact IH.
Qed.

Lemma root_agrees used next items : agrees items (number_root_from used next items).
Proof.
  revert next. induction items as [|[n [z|]] r IH]; intro next; cbn [number_root_from];
    constructor; try apply IH; now split.
Qed.

Lemma add_agrees rootnums next adds : agrees adds (number_add_from rootnums next adds).
Proof.
  revert next. induction adds as [|[n [z|]] r IH]; intro next; cbn [number_add_from];
    constructor; try apply IH; now split.
Qed.

Lemma build_agrees root marker adds : agrees (root ++ adds) (members (build_enumerated root marker adds)).
Proof. apply Forall2_app; [apply root_agrees | apply add_agrees]. Qed.

(* the numbers given to identifier-only items *)
Fixpoint implicit_values (items : list item) (nums : list Z) : list Z :=
  match items, nums with
  | (_, None) :: r, n :: ns => n :: implicit_values r ns
  | (_, Some _) :: r, _ :: ns => implicit_values r ns
  | _, _ => []
  end.

Lemma root_implicit used next items :
  let vs := implicit_values items (map snd (number_root_from used next items)) in
  Forall (fun v => next <= v /\ ~ In v used) vs
  /\ StronglySorted Z.lt vs
  /\ (forall m v, In v vs -> next <= m < v -> In m used \/ In m vs).
Proof.
  cbn zeta. revert next.
  induction items as [|[n [z|]] r IH]; intro next; cbn [number_root_from map snd implicit_values].
  - split; [constructor | split; [constructor | intros m v []]].
  - apply IH.
  - set (s := skip used (length used) next). pose proof (skip_ge used (length used) next) as Hs. fold s in Hs.
    destruct (IH (s + 1)) as [B [S G]]. rewrite Forall_forall in B.
    split; [|split].
    + constructor; [split; [exact Hs | apply skip_notin]|].
      apply Forall_forall. intros v Hv. destruct (B v Hv). split; [lia | assumption].
    + constructor; [exact S|]. apply Forall_forall. intros v Hv. destruct (B v Hv). lia.
    + intros m v Hv Hm. destruct (Z.lt_trichotomy m s) as [Hlt|[->|Hgt]].
      * left. apply (skip_gap used (length used) next). fold s. lia.
      * right. left. reflexivity.
      * destruct Hv as [Hv|Hv]; [lia|].
        destruct (G m v Hv) as [H|H]; [lia | left; exact H | right; right; exact H].
Qed.

Lemma root_numbers_origin used next items x :
  In x (map snd (number_root_from used next items)) ->
  In x (explicit_numbers items) \/ (next <= x /\ ~ In x used).
Proof.
  revert next. induction items as [|[n [z|]] r IH]; intros next H;
    cbn [number_root_from map snd explicit_numbers flat_map app] in *.
  - destruct H.
  - destruct H as [H|H]; [left; left; exact H|].
    destruct (IH _ H) as [H'|H']; [left; right; exact H' | right; exact H'].
  - pose proof (skip_ge used (length used) next). destruct H as [<-|H].
    + right. split; [assumption | apply skip_notin].
    + destruct (IH _ H) as [H'|[H1 H2]]; [left; exact H' | right]. split; [lia | exact H2].
Qed.

Lemma root_nodup used next items :
  NoDup (explicit_numbers items) -> incl (explicit_numbers items) used ->
  NoDup (map snd (number_root_from used next items)).
Proof.
  revert next. induction items as [|[n [z|]] r IH]; intros next Hnd Hincl;
    cbn [number_root_from map snd explicit_numbers flat_map app] in *.
  - constructor.
  - apply NoDup_cons_iff in Hnd as [Hz Hl]. constructor.
    + intro Hin. destruct (root_numbers_origin _ _ _ _ Hin) as [H|[_ H]]; [exact (Hz H)|].
      apply H, Hincl. left. reflexivity.
    + apply IH; [exact Hl | intros y Hy; apply Hincl; right; exact Hy].
  - constructor.
    + intro Hin. destruct (root_numbers_origin _ _ _ _ Hin) as [H|[H _]]; [|lia].
      exact (skip_notin used next (Hincl _ H)).
    + apply IH; assumption.
Qed.

(* additions: [next] stays above every number given so far, so an identifier-only addition, which gets a number
   >= next, is above all earlier additions *)
Lemma add_step rootnums next n o r :
  exists v next', number_add_from rootnums next ((n, o) :: r) = (n, v) :: number_add_from rootnums next' r
    /\ next <= next' /\ v < next'
    /\ match o with Some z => v = z | None => next <= v /\ ~ In v rootnums end.
Proof.
  pose proof (skip_ge rootnums (length rootnums) next).
  destruct o as [z|]; cbn [number_add_from]; eexists; eexists; (split; [reflexivity|]); repeat split; try lia.
  apply skip_notin.
Qed.

Lemma add_nth rootnums adds : forall next i n o,
  nth_error adds i = Some (n, o) ->
  exists v, nth_error (map snd (number_add_from rootnums next adds)) i = Some v /\
            match o with
            | Some z => v = z
            | None => next <= v /\ ~ In v rootnums /\
                      forall p, In p (firstn i (map snd (number_add_from rootnums next adds))) -> p < v
            end.
Proof.
  induction adds as [|[n0 o0] r IH]; intros next [|i] n o Hnth; try discriminate;
    destruct (add_step rootnums next n0 o0 r) as (h & next' & -> & Hn & Hh & Ho); cbn [nth_error map snd firstn] in *.
  - injection Hnth as <- <-. exists h. split; [reflexivity|].
    destruct o0; [exact Ho|]. destruct Ho. repeat split; try assumption. intros p [].
  - destruct (IH next' i n o Hnth) as [v [Hv P]]. exists v. split; [exact Hv|].
    destruct o; [exact P|]. destruct P as [P1 [P2 P3]]. repeat split; [lia | exact P2|].
    intros p [<-|Hp]; [lia | exact (P3 p Hp)].
Qed.

Lemma NoDup_app_prefix {A} (b : list A) : forall a,
  NoDup a -> (forall j x, nth_error b j = Some x -> ~ In x (a ++ firstn j b)) -> NoDup (a ++ b).
Proof.
  induction b as [|y b IH]; intros a Ha H; [now rewrite app_nil_r|].
  change (a ++ y :: b) with (a ++ [y] ++ b). rewrite app_assoc. apply IH.
  - apply (NoDup_Add (Add_app y a [])). rewrite app_nil_r. split; [exact Ha|].
    specialize (H 0%nat y eq_refl). now rewrite app_nil_r in H.
  - intros j x Hj. rewrite <- app_assoc. exact (H (S j) x Hj).
Qed.

Definition all_numbers (root adds : list item) : list Z :=
  map snd (members (build_enumerated root true adds)).

Lemma all_numbers_split root adds :
  all_numbers root adds = map snd (number_root root) ++ map snd (number_adds (number_root root) adds).
Proof. unfold all_numbers, build_enumerated. cbn [members]. apply map_app. Qed.

Lemma distinct root adds :
  NoDup (explicit_numbers root) ->
  (forall i n z, nth_error adds i = Some (n, Some z) ->
                 ~ In z (map snd (number_root root) ++ firstn i (map snd (number_adds (number_root root) adds)))) ->
  NoDup (all_numbers root adds).
Proof.
  intros Hroot Hadd. rewrite all_numbers_split. apply NoDup_app_prefix.
  - apply root_nodup; [exact Hroot | apply incl_refl].
  - intros j x Hj. destruct (nth_error adds j) as [[n o]|] eqn:Ej.
    + destruct (add_nth (map snd (number_root root)) adds 0 j n o Ej) as [v [Hv P]].
      unfold number_adds in Hj. rewrite Hj in Hv. injection Hv as <-.
      destruct o as [z|]; [subst z; exact (Hadd j n x Ej)|]. destruct P as [_ [P2 P3]].
      intro Hin. apply in_app_or in Hin as [Hin|Hin]; [exact (P2 Hin) | specialize (P3 x Hin); lia].
    + assert (Hlen : length (map snd (number_adds (number_root root) adds)) = length adds)
        by (rewrite map_length; apply agrees_length, add_agrees).
      apply nth_error_None in Ej. rewrite <- Hlen in Ej. apply nth_error_None in Ej. congruence.
Qed.
