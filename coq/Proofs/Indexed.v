(* Constructed types keep their members as root ++ additions together with the index of the first addition
   (Some |root| iff a marker was written).  Every pass of the generator and of the linker over such a list
   (format_from, options_from, render_from, render_choice_from, flag_from) walks it with a running index
   and compares that index with the stored one.  [imap] is that walk; [imap_root_adds] says what it comes to:
   the root is treated as root, the additions as additions iff there was a marker. *)
From Coq Require Import PeanoNat List.
Import ListNotations.

Fixpoint imap {A B} (g : nat -> A -> B) (i : nat) (l : list A) : list B :=
  match l with
  | [] => []
  | x :: r => g i x :: imap g (S i) r
  end.

Definition is_addition (first_ext : option nat) (i : nat) : bool :=
  match first_ext with Some k => Nat.leb k i | None => false end.

Lemma imap_app {A B} (g : nat -> A -> B) a b : forall i,
  imap g i (a ++ b) = imap g i a ++ imap g (i + length a) b.
Proof.
  induction a as [|x a IH]; intro i; cbn [app imap length]; [now rewrite Nat.add_0_r|].
  now rewrite IH, Nat.add_succ_r.
Qed.

Lemma imap_const {A B} (g : nat -> A -> B) (h : A -> B) l : forall i,
  (forall j x, i <= j < i + length l -> g j x = h x) -> imap g i l = map h l.
Proof.
  induction l as [|x l IH]; intros i H; cbn [imap map length] in *; [reflexivity|].
  rewrite Nat.add_succ_r in H. rewrite H, IH; [reflexivity | |].
  - intros j y [Hi Hj]. apply H. split; [apply Nat.lt_le_incl, Hi | exact Hj].
  - split; [apply le_n | apply Nat.lt_succ_r, Nat.le_add_r].
Qed.

Theorem imap_root_adds {A B} (h : bool -> A -> B) (marker : bool) (root adds : list A) :
  imap (fun i => h (is_addition (if marker then Some (length root) else None) i)) 0 (root ++ adds)
  = map (h false) root ++ map (h marker) adds.
Proof.
  rewrite imap_app. f_equal; apply imap_const; intros j x Hj; destruct marker; cbn [is_addition]; try reflexivity.
  - now rewrite (proj2 (Nat.leb_gt (length root) j) (proj2 Hj)).
  - now rewrite (proj2 (Nat.leb_le (length root) j) (proj1 Hj)).
Qed.

(* positions in [map f root ++ map g adds], the shape [imap_root_adds] leaves *)
Section Positions.
  Context {A B C : Type} (f : A -> C) (g : B -> C) (root : list A) (adds : list B).

  Lemma nth_root k x : nth_error root k = Some x -> nth_error (map f root ++ map g adds) k = Some (f x).
  Proof.
    intro H. rewrite nth_error_app1; [now apply map_nth_error|].
    rewrite map_length. apply nth_error_Some. congruence.
  Qed.

  Lemma nth_adds j y :
    nth_error adds j = Some y -> nth_error (map f root ++ map g adds) (length root + j) = Some (g y).
  Proof.
    intro H. rewrite nth_error_app2, map_length, Nat.add_comm, Nat.add_sub by (rewrite map_length; apply Nat.le_add_r).
    now apply map_nth_error.
  Qed.

  Lemma nth_root_adds k z :
    nth_error (map f root ++ map g adds) k = Some z ->
    k < length root /\ (exists x, In x root /\ z = f x) \/ length root <= k /\ (exists y, In y adds /\ z = g y).
  Proof.
    intro H. destruct (Nat.lt_ge_cases k (length root)) as [Hk|Hk]; [left | right]; (split; [exact Hk|]).
    - rewrite nth_error_app1 in H by now rewrite map_length.
      apply nth_error_In, in_map_iff in H as [x [<- Hx]]. eauto.
    - rewrite nth_error_app2 in H by now rewrite map_length.
      apply nth_error_In, in_map_iff in H as [y [<- Hy]]. eauto.
  Qed.
End Positions.
