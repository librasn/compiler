(* What an ASN.1 identifier (Spec/Idents.v) is made of. *)
From Coq Require Import NArith List Bool.
Require Import RasnV.Model.Base RasnV.Model.Names RasnV.Spec.Idents.
Import ListNotations.
Local Open Scope N_scope.

Definition asn_char c := is_alnum c || (c =? hyphen).

Lemma asn1_tail_chars s : asn1_tail s = true -> forallb asn_char s = true.
Proof.
  induction s as [|c r IH]; cbn [asn1_tail forallb]; intro H; [reflexivity|].
  destruct (c =? hyphen) eqn:E.
  - apply andb_true_iff in H as [_ H]. rewrite (IH H). unfold asn_char. rewrite E, orb_true_r. reflexivity.
  - apply andb_true_iff in H as [H1 H]. rewrite (IH H). unfold asn_char. rewrite H1. reflexivity.
Qed.

Lemma asn1_ident_inv s :
  asn1_ident s = true -> exists c r, s = c :: r /\ is_letter c = true /\ forallb asn_char r = true.
Proof.
  destruct s as [|c r]; cbn [asn1_ident]; intro H; [discriminate|].
  apply andb_true_iff in H as [H1 H2]. exists c, r. repeat split; auto using asn1_tail_chars.
Qed.
