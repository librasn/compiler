From Coq Require Import List Lia.
Require Import RasnV.Model.Base RasnV.Model.Config.
Import ListNotations.

Lemma add_derive_spec acc d :
  NoDup acc ->
  NoDup (add_derive acc d) /\ (forall x, In x (add_derive acc d) <-> In x acc \/ d = x) /\
  exists t, add_derive acc d = acc ++ t.
Proof.
  intro Hnd. unfold add_derive. destruct (str_in d acc) eqn:E.
  - apply str_in_In in E. split; [exact Hnd|]. split; [|exists []; now rewrite app_nil_r].
    intro x. split; [now left | intros [H| <-]; assumption].
  - assert (Hn : ~ In d acc) by (rewrite <- str_in_In, E; discriminate).
    split; [|split; [|now exists [d]]].
    + apply (NoDup_Add (Add_app d acc [])). now rewrite app_nil_r.
    + intro x. rewrite in_app_iff. cbn [In]. tauto.
Qed.

Theorem merge_derives_spec required user :
  NoDup required ->
  NoDup (merge_derives required user) /\
  (forall x, In x (merge_derives required user) <-> In x required \/ In x (concat user)) /\
  exists t, merge_derives required user = required ++ t.
Proof.
  intro Hnd. unfold merge_derives. induction (concat user) as [|d l IH] using rev_ind.
  - split; [exact Hnd|]. split; [intro x; split; [now left | now intros [H|[]]] | exists []; now rewrite app_nil_r].
  - rewrite fold_left_app. cbn [fold_left]. destruct IH as [H1 [H2 [t Ht]]].
    destruct (add_derive_spec _ d H1) as [H3 [H4 [t' Ht']]]. split; [exact H3|]. split.
    + intro x. rewrite (H4 x), (H2 x), in_app_iff. cbn [In]. tauto.
    + exists (t ++ t'). now rewrite Ht', Ht, app_assoc.
Qed.

Lemma count_ty_pos t l : (0 < count_ty t l)%nat <-> In t l.
Proof.
  induction l as [|x r IH]; cbn [count_ty In]; [split; [lia | tauto]|].
  destruct (str_eqb_spec t x) as [->|Hne].
  - split; [intros _; now left | intros _; lia].
  - split.
    + intro H. right. apply IH. lia.
    + intros [H|H]; [now destruct Hne | apply IH in H; lia].
Qed.
