(* The four name conversions of Model/Names.v produce legal Rust identifiers and keep the skeleton
   of the ASN.1 name.  Each conversion is an optional keyword escape in front of a body made from
   replace_hyphen, snake_body, map to_upper and title_fold.  Legality travels through the bodies as
   [word], the name as [skeleton]: each of the two has its lemma about the escape, and each body,
   in turn, its step equation, its fact about words and its fact about skeletons. *)
From Coq Require Import NArith List Bool Lia ZifyBool.
Require Import RasnV.Model.Base RasnV.Gen.T02 RasnV.Model.Names RasnV.Spec.Idents RasnV.Proofs.Idents.
Import ListNotations.
Local Open Scope N_scope.

(* The classes are intervals of code points, so with the conversions given by cases every fact about
   the class of a converted character is linear arithmetic. *)
Lemma to_lower_cases c : 65 <= c <= 90 /\ to_lower c = c + 32 \/ ~ 65 <= c <= 90 /\ to_lower c = c.
Proof. unfold to_lower, is_upper. destruct (_ && _) eqn:E; lia. Qed.

Lemma to_upper_cases c : 97 <= c <= 122 /\ to_upper c = c - 32 \/ ~ 97 <= c <= 122 /\ to_upper c = c.
Proof. unfold to_upper, is_lower. destruct (_ && _) eqn:E; lia. Qed.

Lemma upper_not_lower c : is_lower (to_upper c) = false.
Proof. pose proof (to_upper_cases c). unfold is_lower. lia. Qed.

Lemma lower_upper c : to_lower (to_upper c) = to_lower c.
Proof. pose proof (to_upper_cases c). pose proof (to_lower_cases c). pose proof (to_lower_cases (to_upper c)). lia. Qed.

Definition caseblind {A} (P : N -> A) := forall c, P (to_lower c) = P c.

Lemma caseblind_upper {A} {P : N -> A} : caseblind P -> forall c, P (to_upper c) = P c.
Proof. intros B c. rewrite <- (B (to_upper c)), lower_upper. apply B. Qed.

Lemma blind_lower : caseblind to_lower.
Proof. intro c. pose proof (to_lower_cases c). pose proof (to_lower_cases (to_lower c)). lia. Qed.

Lemma blind_letter : caseblind is_letter.
Proof. intro c. pose proof (to_lower_cases c). unfold is_letter, is_lower, is_upper. lia. Qed.

Lemma blind_alnum : caseblind is_alnum.
Proof. intro c. unfold is_alnum. rewrite (blind_letter c). f_equal. pose proof (to_lower_cases c). unfold is_digit. lia. Qed.

Lemma blind_ident : caseblind ident_char.
Proof. intro c. unfold ident_char. rewrite (blind_alnum c). f_equal. pose proof (to_lower_cases c). unfold underscore. lia. Qed.

Lemma blind_skeleton : caseblind (fun c => skeleton [c]).
Proof.
  intro c. unfold skeleton. cbn [filter]. rewrite (blind_alnum c). destruct (is_alnum c); [|reflexivity].
  cbn [map]. rewrite (blind_lower c). reflexivity.
Qed.

Lemma letter_ident c : is_letter c = true -> ident_char c = true.
Proof. intro H. unfold ident_char, is_alnum. rewrite H. reflexivity. Qed.

Lemma letter_neq c x : is_letter c = true -> is_letter x = false -> (c =? x) = false.
Proof. intros Hc Hx. destruct (N.eqb_spec c x) as [->|]; congruence. Qed.

(* Three ways not to be a keyword, each a fact of the tables that is recomputed on every run. *)
Lemma spec_subset_table : forallb (fun k => str_in k rust_keywords) spec_keywords = true.
Proof. vm_compute. reflexivity. Qed.

Lemma spec_no_underscore : forallb (fun k => negb (existsb (N.eqb underscore) k)) spec_keywords = true.
Proof. vm_compute. reflexivity. Qed.

Lemma spec_has_lower : forallb (fun k => existsb is_lower k) spec_keywords = true.
Proof. vm_compute. reflexivity. Qed.

Lemma not_kw (p : str -> bool) s : forallb p spec_keywords = true -> p s = false -> str_in s spec_keywords = false.
Proof.
  intros T H. destruct (str_in s spec_keywords) eqn:E; [|reflexivity].
  apply str_in_In in E. rewrite forallb_forall in T. rewrite (T s E) in H. discriminate.
Qed.

Lemma not_table_not_kw s : str_in s rust_keywords = false -> str_in s spec_keywords = false.
Proof. exact (not_kw _ s spec_subset_table). Qed.

Lemma underscore_not_kw s : existsb (N.eqb underscore) s = true -> str_in s spec_keywords = false.
Proof. intro H. apply (not_kw _ s spec_no_underscore). rewrite H. reflexivity. Qed.

Definition word (s : str) : bool :=
  match s with c :: _ => is_letter c | [] => false end && forallb ident_char s.

Lemma word_legal s : word s = true -> str_in s spec_keywords = false -> rust_ident_ok s = true.
Proof.
  destruct s as [|c r]; [discriminate|]. unfold word, rust_ident_ok. intros W K.
  apply andb_true_iff in W as [-> ->]. rewrite K. reflexivity.
Qed.

Lemma word_escape (b : bool) p l :
  is_letter p = true -> word l = true -> word (if b then p :: underscore :: l else l) = true.
Proof.
  intros Hp Hl. destruct b; [|exact Hl]. apply andb_true_iff in Hl as [_ Hl].
  unfold word. cbn [forallb]. rewrite Hp, (letter_ident p Hp), Hl. reflexivity.
Qed.

Lemma escape_legal (b : bool) p l :
  is_letter p = true -> word l = true -> (b = false -> str_in l spec_keywords = false) ->
  rust_ident_ok (if b then p :: underscore :: l else l) = true.
Proof.
  intros Hp Hl K. apply word_legal; [apply word_escape; assumption|].
  destruct b; [apply underscore_not_kw; cbn; apply orb_true_r | auto].
Qed.

Lemma skeleton_cons c s : skeleton (c :: s) = skeleton [c] ++ skeleton s.
Proof. unfold skeleton. cbn [filter]. destruct (is_alnum c); reflexivity. Qed.

Lemma skeleton_cons_eq c d s t : skeleton [c] = skeleton [d] -> skeleton s = skeleton t -> skeleton (c :: s) = skeleton (d :: t).
Proof. intros Hc Hs. rewrite (skeleton_cons c), (skeleton_cons d), Hc, Hs. reflexivity. Qed.

Lemma skeleton_map f s : (forall c, skeleton [f c] = skeleton [c]) -> skeleton (map f s) = skeleton s.
Proof. intro H. induction s as [|c r IH]; [reflexivity|]. cbn [map]. apply skeleton_cons_eq; [apply H | exact IH]. Qed.

Lemma skeleton_escape (b : bool) p l :
  skeleton (if b then p :: underscore :: l else l) = (if b then skeleton [p] else []) ++ skeleton l.
Proof. destruct b; [|reflexivity]. rewrite (skeleton_cons p), (skeleton_cons underscore). reflexivity. Qed.

Lemma replace_hyphen_cons c r :
  replace_hyphen (c :: r) = (if c =? hyphen then underscore else c) :: replace_hyphen r.
Proof. reflexivity. Qed.

Lemma replace_hyphen_chars s : forallb asn_char s = true -> forallb ident_char (replace_hyphen s) = true.
Proof.
  induction s as [|c r IH]; [reflexivity|]. rewrite replace_hyphen_cons. cbn [forallb]. intro H.
  apply andb_true_iff in H as [H1 H2]. rewrite (IH H2), andb_true_r. unfold asn_char in H1.
  destruct (c =? hyphen); [reflexivity|]. rewrite orb_false_r in H1. unfold ident_char. rewrite H1. reflexivity.
Qed.

Lemma asn1_word s : asn1_ident s = true -> word (replace_hyphen s) = true.
Proof.
  intro H. apply asn1_ident_inv in H as [c [r [-> [Hc Hr]]]].
  rewrite replace_hyphen_cons, (letter_neq c hyphen Hc eq_refl). unfold word. cbn [forallb].
  rewrite Hc, (letter_ident c Hc), (replace_hyphen_chars r Hr). reflexivity.
Qed.

Lemma replace_hyphen_same s : replace_hyphen s = s \/ existsb (N.eqb underscore) (replace_hyphen s) = true.
Proof.
  induction s as [|c r [IH|IH]]; [left; reflexivity | |]; rewrite replace_hyphen_cons; cbn [existsb].
  - destruct (c =? hyphen); [right; reflexivity | left; rewrite IH; reflexivity].
  - right. rewrite IH. apply orb_true_r.
Qed.

Lemma skeleton_replace_hyphen s : skeleton (replace_hyphen s) = skeleton s.
Proof. apply skeleton_map. intro c. destruct (N.eqb_spec c hyphen) as [->|]; reflexivity. Qed.

(* a step of snake_body, as far as ident_char and skeleton can tell *)
Lemma snake_body_cons c r :
  exists c' sep, snake_body (c :: r) = c' :: sep ++ snake_body r
                 /\ (c' = c \/ c' = to_lower c) /\ (sep = [] \/ sep = [underscore]).
Proof.
  cbn [snake_body]. destruct (is_lower c || (c =? underscore) || is_digit c);
    [destruct (negb (c =? underscore) && match r with n :: _ => is_upper n | [] => false end)|].
  - exists c, [underscore]. auto.
  - exists c, []. auto.
  - exists (to_lower c), []. auto.
Qed.

Lemma snake_body_chars s : forallb ident_char (snake_body s) = forallb ident_char s.
Proof.
  induction s as [|c r IH]; [reflexivity|].
  destruct (snake_body_cons c r) as (c' & sep & -> & [-> | ->] & [-> | ->]);
    cbn [forallb app]; rewrite IH, ?blind_ident; reflexivity.
Qed.

Lemma word_snake_body s : word (snake_body s) = word s.
Proof.
  unfold word. rewrite snake_body_chars. f_equal. destruct s as [|c r]; [reflexivity|].
  destruct (snake_body_cons c r) as (c' & sep & -> & [-> | ->] & _); [reflexivity | apply blind_letter].
Qed.

Lemma skeleton_snake_body s : skeleton (snake_body s) = skeleton s.
Proof.
  induction s as [|c r IH]; [reflexivity|].
  destruct (snake_body_cons c r) as (c' & sep & -> & [-> | ->] & [-> | ->]);
    apply skeleton_cons_eq; try reflexivity; try exact IH; apply blind_skeleton.
Qed.

Lemma word_map_upper s : word (map to_upper s) = word s.
Proof.
  unfold word. f_equal; [destruct s; [reflexivity | apply (caseblind_upper blind_letter)]|].
  induction s as [|c r IH]; [reflexivity|]. cbn [map forallb]. rewrite (caseblind_upper blind_ident), IH. reflexivity.
Qed.

Lemma no_lower_map_upper s : existsb is_lower (map to_upper s) = false.
Proof. induction s as [|c r IH]; [reflexivity|]. cbn [map existsb]. rewrite upper_not_lower. exact IH. Qed.

Lemma skeleton_map_upper s : skeleton (map to_upper s) = skeleton s.
Proof. apply skeleton_map, (caseblind_upper blind_skeleton). Qed.

(* the accumulator of title_fold only carries what is already final, but for its last character *)
Lemma title_fold_cons s : forall l acc, title_fold (l :: acc) s = rev acc ++ title_fold [l] s.
Proof.
  induction s as [|c r IH]; intros l acc; cbn [title_fold]; [reflexivity|].
  destruct (l =? underscore); [apply IH|].
  rewrite (IH c (l :: acc)), (IH c [l]). cbn [rev app]. rewrite <- app_assoc. reflexivity.
Qed.

Lemma title_fold_step l c r :
  title_fold [l] (c :: r) = if l =? underscore then title_fold [to_upper c] r else l :: title_fold [c] r.
Proof. cbn [title_fold]. rewrite (title_fold_cons r c [l]). reflexivity. Qed.

Lemma title_fold_start c r : title_fold [] (c :: r) = title_fold [to_upper c] r.
Proof. cbn [title_fold]. unfold to_upper. destruct (is_lower c); reflexivity. Qed.

Lemma title_fold_chars s : forall l,
  forallb ident_char (title_fold [l] s) = ident_char l && forallb ident_char s.
Proof.
  induction s as [|c r IH]; intro l; [reflexivity|]. rewrite title_fold_step.
  destruct (N.eqb_spec l underscore) as [->|_]; cbn [forallb]; rewrite IH, ?(caseblind_upper blind_ident); reflexivity.
Qed.

Lemma word_title_fold s : word s = true -> word (title_fold [] s) = true.
Proof.
  destruct s as [|c r]; [discriminate|]. unfold word at 1. cbn [forallb]. intro H.
  apply andb_true_iff in H as [Hc Hs]. rewrite <- (caseblind_upper blind_letter) in Hc.
  rewrite title_fold_start. unfold word. rewrite title_fold_chars, (caseblind_upper blind_ident), Hs, andb_true_r.
  destruct r as [|d r]; [|rewrite title_fold_step, (letter_neq _ underscore Hc eq_refl)]; exact Hc.
Qed.

Lemma title_fold_skeleton s : forall l, skeleton (title_fold [l] s) = skeleton (l :: s).
Proof.
  induction s as [|c r IH]; intro l; [reflexivity|]. rewrite title_fold_step.
  destruct (N.eqb_spec l underscore) as [->|_].
  - rewrite IH. apply (skeleton_cons_eq (to_upper c) c r r); [apply (caseblind_upper blind_skeleton) | reflexivity].
  - apply skeleton_cons_eq; [reflexivity | apply IH].
Qed.

Lemma skeleton_title_fold s : skeleton (title_fold [] s) = skeleton s.
Proof.
  destruct s as [|c r]; [reflexivity|]. rewrite title_fold_start, title_fold_skeleton.
  apply skeleton_cons_eq; [apply (caseblind_upper blind_skeleton) | reflexivity].
Qed.

(* Of the ASN.1 lexis only the leading letter and the character set are used, not where the hyphens
   stand; for an ASN.1 identifier the hypothesis is [asn1_word]. *)
Lemma snake_legal s : word (replace_hyphen s) = true -> rust_ident_ok (snake s) = true.
Proof.
  intro H. unfold snake. apply escape_legal; [reflexivity | rewrite word_snake_body; exact H | apply not_table_not_kw].
Qed.

Lemma title_legal s : word (replace_hyphen s) = true -> rust_ident_ok (title s) = true.
Proof.
  intro H. unfold title. apply escape_legal; [reflexivity | apply word_title_fold, H | apply not_table_not_kw].
Qed.

(* the keyword test of enum_ident is on the unmangled name *)
Lemma enum_legal s : word (replace_hyphen s) = true -> rust_ident_ok (enum_ident s) = true.
Proof.
  intro H. unfold enum_ident. apply escape_legal; [reflexivity | exact H |]. intro E.
  destruct (replace_hyphen_same s) as [-> | U]; [apply not_table_not_kw, E | apply underscore_not_kw, U].
Qed.

Lemma const_legal s : word (replace_hyphen s) = true -> rust_ident_ok (const_case s) = true.
Proof.
  intro H. unfold const_case. apply word_legal; [|apply (not_kw _ _ spec_has_lower), no_lower_map_upper].
  rewrite word_map_upper. unfold snake. apply word_escape; [reflexivity | rewrite word_snake_body; exact H].
Qed.
