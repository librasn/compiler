From Coq Require Import List.
Require Import RasnV.Model.Base RasnV.Model.Deliver.
Import ListNotations.

Definition writable (f : fs) : bool :=
  can_write f && match dest f with
                 | Dir => match dest_gen f with Dir => false | _ => true end
                 | _ => true
                 end.

(* where the text ends up *)
Definition delivered_at (f : fs) : entry := match dest f with Dir => dest_gen f | e => e end.

Lemma write_spec f text :
  write f text =
  if writable f
  then (match dest f with
        | Dir => mkfs true Dir (File text) (bystander f)
        | _ => mkfs true (File text) (dest_gen f) (bystander f)
        end, Ok)
  else (f, Err).
Proof. unfold write, writable. destruct (dest f), (dest_gen f), (can_write f); reflexivity. Qed.

Lemma ends_with_spec suffix s : ends_with suffix s = true <-> exists p, s = p ++ suffix.
Proof.
  split.
  - induction s as [|c s IH]; cbn [ends_with]; destruct (str_eqb _ suffix) eqn:E; intro H.
    1, 3: apply str_eqb_eq in E; now exists [].
    + discriminate.
    + destruct (IH H) as [p ->]. now exists (c :: p).
  - intros [p ->]. induction p as [|c p IH]; cbn [app].
    + destruct suffix; cbn [ends_with]; now rewrite str_eqb_refl.
    + cbn [ends_with]. rewrite IH. now destruct (str_eqb _ suffix).
Qed.
