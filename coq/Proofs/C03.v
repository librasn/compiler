From Coq Require Import NArith List Bool.
Require Import RasnV.Model.Base RasnV.Model.Tagging RasnV.Spec.TagSpec.
Import ListNotations.

Definition tclass_eqb (a b : tclass) : bool :=
  match a, b with
  | Universal, Universal | Application, Application | Private, Private | Context, Context => true
  | _, _ => false
  end.

(* class and number pass through untouched, and only the element position drops the tag; what render_tag decides is
   the explicitness alone *)
Definition explicitness (clause kw : option tenv) (pos : position) (kind : tkind) : bool :=
  match render_tag clause kw Universal 0%N pos kind with Some (e, _, _) => e | None => false end.

Lemma render_tag_shape clause kw cls n pos kind :
  render_tag clause kw cls n pos kind =
  if known_element pos then None else Some (explicitness clause kw pos kind, cls, n).
Proof.
  unfold explicitness, render_tag. destruct pos, kind; cbn; try reflexivity.
  destruct (tenv_eqb (header_env clause) Explicit); reflexivity.
Qed.

Definition config_ok (c : option tenv * (option tenv * (position * tkind))) : bool :=
  let '(clause, (kw, (pos, kind))) := c in
  if known_no_clause clause kw || known_element pos then true
  else if negb (legal_tag kw kind) then true
  else if negb (attr_observable pos kind) then true
  else Bool.eqb (explicitness clause kw pos kind) (spec_explicit clause kw kind).

(* finite by nature: 4 x 3 x 5 x 5 configurations, closed by computation *)
Lemma config_space :
  forallb config_ok (list_prod all_clauses (list_prod all_kws (list_prod all_positions all_kinds))) = true.
Proof. vm_compute. reflexivity. Qed.

Lemma all_clauses_complete c : In c all_clauses.
Proof. destruct c as [[| |]|]; cbn; tauto. Qed.
Lemma all_kws_complete k : In k all_kws \/ k = Some Automatic.
Proof. destruct k as [[| |]|]; cbn; tauto. Qed.
Lemma all_classes_complete c : In c all_classes. Proof. destruct c; cbn; tauto. Qed.
Lemma all_positions_complete p : In p all_positions. Proof. destruct p; cbn; tauto. Qed.
Lemma all_kinds_complete k : In k all_kinds. Proof. destruct k; cbn; tauto. Qed.

Lemma mode_correct clause kw cls n pos kind :
  In kw all_kws -> known_no_clause clause kw = false -> known_element pos = false ->
  legal_tag kw kind = true -> attr_observable pos kind = true ->
  render_tag clause kw cls n pos kind = Some (spec_explicit clause kw kind, cls, n).
Proof.
  intros Hkw Hk He Hl Ho.
  assert (H : config_ok (clause, (kw, (pos, kind))) = true).
  { apply (proj1 (forallb_forall _ _) config_space).
    repeat apply in_prod; [apply all_clauses_complete | exact Hkw | apply all_positions_complete | apply all_kinds_complete]. }
  unfold config_ok in H. rewrite Hk, He, Hl, Ho in H. cbn [negb orb] in H.
  now rewrite render_tag_shape, He, (eqb_prop _ _ H).
Qed.

Lemma automatic_matches_spec clause tagged : automatic_tags clause tagged = spec_automatic clause tagged.
Proof.
  unfold automatic_tags, spec_automatic.
  destruct clause as [[| |]|]; cbn; try reflexivity.
  induction tagged as [|b r IH]; cbn; [reflexivity|]. destruct b; cbn; [reflexivity | exact IH].
Qed.

Lemma automatic_iff clause tagged :
  automatic_tags clause tagged = true <-> (clause = Some Automatic /\ forall b, In b tagged -> b = false).
Proof.
  rewrite automatic_matches_spec. unfold spec_automatic.
  destruct clause as [[| |]|]; [| split; [discriminate | intros [[=] _]] ..].
  split.
  - intro H. split; [reflexivity|]. intros b Hb. apply negb_true_iff. exact (proj1 (forallb_forall _ _) H b Hb).
  - intros [_ H]. apply forallb_forall. intros b Hb. apply negb_true_iff, H, Hb.
Qed.

(* apply is idempotent: env + (env + t) = env + t *)
Lemma env_add_idem env t : env_add env (env_add env t) = env_add env t.
Proof. destruct env, t; reflexivity. Qed.

Scheme tty_ind2 := Induction for tty Sort Prop
  with tlist_ind2 := Induction for tlist Sort Prop.
Combined Scheme tty_tlist_ind from tty_ind2, tlist_ind2.

Lemma apply_rec_tags env :
  (forall t, tags_of (apply_rec env t) = map (apply_env env) (tags_of t)) /\
  (forall l, tags_of_list (apply_list env l) = map (apply_env env) (tags_of_list l)).
Proof.
  apply tty_tlist_ind; cbn [apply_rec apply_list tags_of tags_of_list]; [reflexivity | auto | reflexivity |].
  intros t c IHc r IHr. rewrite !map_app, IHc, IHr. destruct t; reflexivity.
Qed.
